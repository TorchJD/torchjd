(* C01 — backward() deposits the aggregation of the true Jacobian into .grad.  Obligations only.
   Instance: real numbers (every finite float is a real).  P ranges over all autograd programs
   (any number of tensors, shapes, reuse), A over all aggregators (any function). *)
From Coq Require Import Reals List Bool Arith.
From TJ Require Import Num Linalg NumR Chunk Autojac.
From TJ.proofs Require Import LinalgR AutojacBasics AutojacSpec C01Proofs.
Import ListNotations.

(* an accepted call adds to the .grad of EVERY input exactly its own slice (reshaped to the
   input's shape) of A(J), J = the true Jacobian whose rows are the scalars of `tensors`
   (flattened, in the order given) and whose columns are the scalars of the inputs in the
   enumeration order `ord` of the input set; no other .grad changes.  For every chunk size and
   both retain flags. *)
Theorem C01_deposit : forall (P : prog R) (A : list (list R) -> res (list R))
    tensors ord k retain s d' s',
  wf_prog P -> ord <> [] -> (1 <= total P tensors)%nat ->
  backward_model RN P A tensors ord k retain s = (Ok d', s') ->
  NoDup tensors /\ NoDup ord /\
  exists v, A (jacobian P tensors ord) = Ok v /\ length v = total P ord /\
    (forall i, In i ord ->
       grad_val s' i = Some (acc_val (grad_val s i) (plain (p_shape P i) (slice_of P ord v i)))) /\
    (forall t, ~ In t ord -> sget s' t = sget s t).
Proof. exact backward_deposit. Qed.
Print Assumptions C01_deposit.

Theorem C01_no_inputs : forall (P : prog R) A tensors k retain s d' s',
  backward_model RN P A tensors [] k retain s = (Ok d', s') -> s_grads s' = s_grads s.
Proof. exact backward_no_inputs. Qed.
Print Assumptions C01_no_inputs.

(* an input that does not influence the outputs contributes a zero column block *)
Theorem C01_unreachable_zero : forall (P : prog R) outs i,
  wf_prog P -> (forall o, In o outs -> p_reach P o i = false) ->
  Forall (fun row => row = vzeroR (pnumel P i)) (Drows P outs i).
Proof. exact unreachable_zero_block. Qed.
Print Assumptions C01_unreachable_zero.

(* rows follow the order in which the tensors are given *)
Theorem C01_rows_follow_tensor_order : forall (P : prog R) a b ord,
  wf_prog P -> jacobian P (a ++ b) ord = jacobian P a ord ++ jacobian P b ord.
Proof. exact jacobian_rows_app. Qed.
Print Assumptions C01_rows_follow_tensor_order.

(* the engine contract used above, as a lemma of the model: the VJP of the r-th one-hot cotangent
   is the r-th row of the stacked total derivative (a tensor reached through several paths
   contributes its TOTAL derivative: D is the total-derivative block) *)
Theorem C01_onehot_row : forall (P : prog R) i outs r,
  wf_prog P -> (r < total P outs)%nat ->
  vjp RN P outs (split_by (map (pnumel P) outs) (onehotR (total P outs) r 1%R)) i
  = nth r (Drows P outs i) [].
Proof. exact vjp_onehot. Qed.
Print Assumptions C01_onehot_row.

(* TOTALITY: a call with valid arguments IS accepted — every input expects a grad, one engine run
   from the tensors to the inputs would succeed in the current state, the aggregator accepts the
   Jacobian with a vector of the right length — for EVERY chunk size and both flags *)
From TJ.proofs Require Import EntrySpec C13Proofs AcceptProofs.
Theorem C01_accepts : forall (P : prog R) (A : list (list R) -> res (list R)) tensors ord k retain s v,
  wf_prog P ->
  valid_chunk k = true -> tensors <> [] -> NoDup tensors -> NoDup ord -> ord <> [] ->
  (1 <= total P tensors)%nat ->
  expects_all P ord = true ->
  sweep_ok P s tensors ord = true ->
  A (jacobian P tensors ord) = Ok v -> length v = total P ord ->
  exists d' s', backward_model RN P A tensors ord k retain s = (Ok d', s').
Proof. exact backward_accepts. Qed.
Print Assumptions C01_accepts.
(* and these are the ONLY ways an argument-valid call can fail *)
Theorem C01_failure_causes : forall (P : prog R) A tensors ord k retain s e s',
  wf_prog P -> backward_args_ok tensors ord k retain = true -> ord <> [] ->
  (1 <= total P tensors)%nat ->
  backward_model RN P A tensors ord k retain s = (Err e, s') ->
  sweep_ok P s tensors ord = false \/
  A (jacobian P tensors ord) = Err e \/
  (exists v, A (jacobian P tensors ord) = Ok v /\ length v <> total P ord) \/
  expects_all P ord = false.
Proof. exact backward_failure_causes. Qed.
Print Assumptions C01_failure_causes.

(* non-vacuity (executable instance QN): a concrete accepted call.  y = (2 x0, 3 x1), Constant(1,10):
   x.grad goes from absent to (2, 30), for chunk sizes None, 1 and 3 *)
From Coq Require Import QArith.
From TJ Require Import NumQ Agg AutojacShow.
Example C01_accepted_call :
  let P := mk_prog [[2%nat]; [2%nat]] [(1%nat, 0%nat, [[2#1; 0#1]; [0#1; 3#1]])] [(1%nat, 0%nat)]
                   [true; true] [true; false] [None; Some 0%nat] [Some 1%nat; Some 0%nat]
                   [[Some 1%nat]; []] [None; Some 0%nat] [true; false] in
  map (fun k => show_grads (snd (backward_model QN P (agg_constant QN [1#1; 10#1]) [1%nat] [0%nat] k false
                                  (mk_store [] [] 0%nat))) [0%nat])
      [None; Some 1%nat; Some 3%nat]
  = repeat [Some (0%nat, ([2%nat], [(2%Z, 1%Z); (30%Z, 1%Z)]))] 3.
Proof. vm_compute. reflexivity. Qed.

(* FROM Q TO R: the model is executed at QN (exact rationals) by the correspondence check and
   the theorems above are stated at RN.  The whole autojac model commutes with every map that
   preserves 0, 1, + and * (it uses no other numeric operation), in particular with Q2R: the value
   computed by vm_compute at QN, mapped to R, IS the value the theorems speak about. *)
From TJ.proofs Require Import TransferProofs.
Theorem C01_model_is_a_ring_homomorphism_invariant :
  forall (T U : Type) (NT : Num T) (NU : Num U) (phi : T -> U),
  phi (n0 NT) = n0 NU -> phi (n1 NT) = n1 NU ->
  (forall a b, phi (nadd NT a b) = nadd NU (phi a) (phi b)) ->
  (forall a b, phi (nmul NT a b) = nmul NU (phi a) (phi b)) ->
  forall P A A', agg_hom phi A A' -> forall tensors ord k retain s,
  backward_model NU (mprog phi P) A' tensors ord k retain (mstore phi s)
  = (mres phi (fst (backward_model NT P A tensors ord k retain s)),
     mstore phi (snd (backward_model NT P A tensors ord k retain s))).
Proof. exact @backward_hom. Qed.
Print Assumptions C01_model_is_a_ring_homomorphism_invariant.
Theorem C01_executed_model_is_the_real_model : forall (P : prog Q) A A', agg_hom Q2R A A' ->
  forall tensors ord k retain s,
  backward_model RN (mprog Q2R P) A' tensors ord k retain (mstore Q2R s)
  = (mres Q2R (fst (backward_model QN P A tensors ord k retain s)),
     mstore Q2R (snd (backward_model QN P A tensors ord k retain s))).
Proof. exact backward_Q_to_R. Qed.
Print Assumptions C01_executed_model_is_the_real_model.
(* the aggregators used by the correspondence are related across the two instances *)
Theorem C01_constant_sum_mean_transfer :
  (forall w, agg_hom Q2R (agg_constant QN w) (agg_constant RN (map Q2R w))) /\
  agg_hom Q2R (fun J => Ok (agg_sum QN J)) (fun J => Ok (agg_sum RN J)) /\
  agg_hom Q2R (fun J => Ok (agg_mean QN J)) (fun J => Ok (agg_mean RN J)).
Proof. exact (conj agg_constant_Q_to_R (conj agg_sum_Q_to_R agg_mean_Q_to_R)). Qed.
Print Assumptions C01_constant_sum_mean_transfer.
