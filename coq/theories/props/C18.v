(* C18 — MGDA, PCGrad, CAGrad, GradDrop and Random satisfy their published definitions. *)
From Coq Require Import Reals List Bool Arith Lra.
From TJ Require Import Num Linalg NumR Agg.
From TJ.proofs Require Import LinalgR QPProofs C03Proofs C18Proofs.
Import ListNotations.
Local Open Scope R_scope.

(* MGDA: for every Gramian-shaped input, every epsilon and every iteration budget, the weights are
   non-negative and sum to one (a convex combination of the rows) *)
Theorem C18_mgda_simplex : forall G eps iters, (1 <= length G)%nat ->
  length (mgda_weights RN G eps iters) = length G /\
  nonneg (mgda_weights RN G eps iters) /\ vsumR (mgda_weights RN G eps iters) = 1.
Proof. exact mgda_weights_simplex. Qed.
Print Assumptions C18_mgda_simplex.

(* Random: the softmax of ANY draw is a strictly positive convex combination *)
Theorem C18_random : forall e, e <> [] -> Forall (fun x => 0 < x) e ->
  Forall (fun x => 0 < x) (random_weights RN e) /\ vsumR (random_weights RN e) = 1 /\
  length (random_weights RN e) = length e.
Proof. exact random_weights_simplex. Qed.
Print Assumptions C18_random.

(* CAGrad: |A(J) - g0|^2 = c^2 |g0|^2 whenever the solver's g_w is above the threshold, whatever
   the solver answered; below it the zero vector *)
Theorem C18_cagrad_distance : forall n J s ne c w_opt, wfmat n J -> J <> [] ->
  length w_opt = length J -> 0 < s -> nltb RN s ne = false ->
  let m := length J in
  let g0 := vmR n (mean_weights RN m) J in
  let Gn := normalized_gramian RN (gramR J) s ne in
  nleb RN ne (sqrt (quadform RN Gn w_opt)) = true -> 0 < ne ->
  let d := vsubR (agg_cagrad RN s ne c w_opt J) g0 in
  dotR d d = c * c * dotR g0 g0.
Proof. exact cagrad_distance. Qed.
Print Assumptions C18_cagrad_distance.

Theorem C18_cagrad_stationary : forall n J s ne c w_opt, wfmat n J -> J <> [] ->
  nleb RN ne (sqrt (quadform RN (normalized_gramian RN (gramR J) s ne) w_opt)) = false ->
  agg_cagrad RN s ne c w_opt J = vzeroR n.
Proof. exact cagrad_small. Qed.
Print Assumptions C18_cagrad_stationary.

(* PCGrad: for EVERY schedule (any list of index lists), the weight-level computation of the code
   equals the vector-level definition of the paper: row i successively projected off every other
   row its CURRENT value conflicts with, summed over i *)
Theorem C18_pcgrad : forall n J perms, wfmat n J -> J <> [] -> (length perms <= length J)%nat ->
  Forall (Forall (fun j => (j < length J)%nat)) perms ->
  agg_pcgrad RN perms J = pc_outer_vec J 0 perms (vzeroR n).
Proof. exact pcgrad_spec. Qed.
Print Assumptions C18_pcgrad.

(* no conflict: projections never fire *)
Theorem C18_pcgrad_no_conflict : forall J i perm g,
  Forall (fun j => 0 <= dotR g (nth j J [])) perm -> pc_vec J i perm g = g.
Proof. exact pc_vec_no_conflict. Qed.
Print Assumptions C18_pcgrad_no_conflict.

(* GradDrop: for every draw u and every leak, a coordinate is the sum of the positive entries
   (when u < P) or of the negative entries (when P < u) of its column, plus the leaked share of
   the others *)
Theorem C18_graddrop : forall leak col u,
  let s := vsumR col in let a := vsumR (map (nabs RN) col) in
  let P := (1 / 2) * (1 + s / a) in
  0 < a ->
  (u < P -> graddrop_coord RN leak col u = masked_sum (fun x => Rltb 0 x) leak col) /\
  (P < u -> graddrop_coord RN leak col u = masked_sum (fun x => Rltb x 0) leak col).
Proof. exact graddrop_coord_cases. Qed.
Print Assumptions C18_graddrop.

(* non-vacuity: a conflicting 2-row example where the projection fires *)
Example C18_pcgrad_example :
  pc_vec [[1; 0]; [-1; 1]] 0 [1%nat] [1; 0] = [1/2; 1/2].
Proof. cbn [pc_vec Nat.eqb nth]. rn.
  assert (E : Rltb (dotR [1; 0] [-1; 1]) 0 = true) by (apply Rltb_true; cbn; lra).
  rewrite E. cbn. f_equal; [|f_equal]; lra. Qed.

(* MGDA: Frank-Wolfe never increases the norm; never longer than the mean row *)
From TJ.proofs Require Import MgdaProofs.
Theorem C18_mgda_step_decreases : forall n J alpha, wfmat n J -> simplex (length J) alpha ->
  quadform RN (gramR J) (fst (mgda_step RN (gramR J) alpha)) <= quadform RN (gramR J) alpha.
Proof. exact mgda_step_decreases. Qed.
Print Assumptions C18_mgda_step_decreases.
Theorem C18_mgda_not_longer_than_mean : forall n J eps iters, wfmat n J ->
  dotR (agg_mgda RN eps iters J) (agg_mgda RN eps iters J) <=
  dotR (agg_mean RN J) (agg_mean RN J).
Proof. exact mgda_not_longer_than_mean. Qed.
Print Assumptions C18_mgda_not_longer_than_mean.

(* MGDA on two rows: for every epsilon and every budget >= 1 the output IS the minimum-
   norm point of the segment between the two rows *)
From TJ.proofs Require Import PublishedProofs.
Theorem C18_mgda_two_rows : forall n g1 g2 eps iters, length g1 = n -> length g2 = n ->
  (1 <= iters)%nat ->
  let J := [g1; g2] in
  let x1 := vmR n (fst (mgda_step RN (gramR J) (mean_weights RN 2))) J in
  agg_mgda RN eps iters J = x1 /\
  dotR (agg_mgda RN eps iters J) (agg_mgda RN eps iters J) = dotR x1 x1 /\
  (forall t, 0 <= t <= 1 ->
     dotR x1 x1 <= dotR (vaddR (vscaleR (1 - t) g1) (vscaleR t g2))
                        (vaddR (vscaleR (1 - t) g1) (vscaleR t g2))).
Proof. exact mgda_two_rows_output. Qed.
Print Assumptions C18_mgda_two_rows.

(* instance gap: the executed (QN) MGDA, PCGrad, GradDrop and Random models, mapped by Q2R,
   are the real models the theorems speak about *)
From Coq Require Import QArith Qreals.
From TJ Require Import NumQ.
From TJ.proofs Require Import TransferProofs TransferAggProofs.
Theorem C18_executed_models_are_the_real_models :
  (forall eps iters J, agg_mgda RN (Q2R eps) iters (map (map Q2R) J) = map Q2R (agg_mgda QN eps iters J)) /\
  (forall perms J, agg_pcgrad RN perms (map (map Q2R) J) = map Q2R (agg_pcgrad QN perms J)) /\
  (forall leak U0 J, agg_graddrop RN (option_map (map Q2R) leak) (map Q2R U0) (map (map Q2R) J)
     = match agg_graddrop QN leak U0 J with Ok v => Ok (map Q2R v) | Err e => Err e end) /\
  (forall e J, agg_random RN (map Q2R e) (map (map Q2R) J) = map Q2R (agg_random QN e J)).
Proof.
  exact (conj agg_mgda_Q_to_R (conj agg_pcgrad_Q_to_R (conj agg_graddrop_Q_to_R agg_random_Q_to_R))).
Qed.
Print Assumptions C18_executed_models_are_the_real_models.
