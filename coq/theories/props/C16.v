(* C16 — Byzantine-robust aggregators ignore a bounded number of arbitrary rows. *)
From Coq Require Import Reals List Bool Arith Lia Permutation Sorted.
From TJ Require Import Num Linalg NumR Agg.
From TJ.proofs Require Import LinalgR C16Proofs.
Import ListNotations.
Local Open Scope R_scope.

(* the model sorts each column: a sorted permutation, so dropping the first b and last b entries
   removes the b smallest and the b largest *)
Theorem C16_tm_sorted_column : forall col,
  Permutation (isort RN col) col /\ StronglySorted Rle (isort RN col) /\
  forall b, trimmed RN b col =
    vsumR (firstn (length col - 2 * b) (skipn b (isort RN col))) /
    INR (length (firstn (length col - 2 * b) (skipn b (isort RN col)))).
Proof.
  intros col. split; [apply isort_perm|]. split; [apply isort_sorted|]. intros b. reflexivity.
Qed.
Print Assumptions C16_tm_sorted_column.

(* robustness: the column is any arrangement of honest entries (all within [lo,hi]) and at most b
   arbitrary real entries; the trimmed mean stays within [lo,hi] *)
Theorem C16_tm_robust : forall b col honest corrupt lo hi,
  Permutation col (honest ++ corrupt) -> (length corrupt <= b)%nat ->
  (2 * b + 1 <= length col)%nat ->
  (forall h, In h honest -> lo <= h) -> (forall h, In h honest -> h <= hi) ->
  lo <= trimmed RN b col <= hi.
Proof. exact trimmed_robust. Qed.
Print Assumptions C16_tm_robust.

(* every output coordinate of TrimmedMean is the trimmed mean of its own column *)
Theorem C16_tm_columnwise : forall b J, (2 * b + 1 <= length J)%nat ->
  agg_trimmed_mean RN b J = Ok (map (fun j => trimmed RN b (column RN J j)) (seq 0 (ncols J))).
Proof. exact trimmed_mean_columnwise. Qed.
Print Assumptions C16_tm_columnwise.

(* Krum: exactly k distinct rows, those of smallest score *)
Theorem C16_krum_selection : forall k v, (k <= length v)%nat ->
  let sel := smallest_k RN k v in
  NoDup sel /\ length sel = k /\ (forall i, In i sel -> (i < length v)%nat) /\
  (forall i j, In i sel -> (j < length v)%nat -> ~ In j sel -> nth i v 0 <= nth j v 0).
Proof. exact smallest_k_spec. Qed.
Print Assumptions C16_krum_selection.

(* ... combined with weight 1/k each (a plain average), 0 for the others *)
Theorem C16_krum_weights : forall D f k, (1 <= k)%nat ->
  let m := length D in
  let sel := smallest_k RN k (krum_scores RN D (m - f - 2)) in
  NoDup sel ->
  forall i, (i < m)%nat ->
    nth i (krum_weights_of_dist RN D f k) 0 = if in_dec Nat.eq_dec i sel then 1 / INR k else 0.
Proof. intros D f k _. apply krum_weights_spec. Qed.
Print Assumptions C16_krum_weights.

(* too few rows are rejected *)
Theorem C16_reject_few_rows : forall b f k J,
  ((length J < 2 * b + 1)%nat -> agg_trimmed_mean RN b J = Err ValueError) /\
  ((length J < f + 3)%nat \/ (length J < k)%nat -> agg_krum RN f k J = Err ValueError).
Proof.
  intros b f k J. split; [apply trimmed_mean_few_rows | apply krum_few_rows].
Qed.
Print Assumptions C16_reject_few_rows.

(* non-vacuity: b = 1, four rows, one corrupted by 10^12 *)
Example C16_example : 1 <= trimmed RN 1 [2; 1000000000000; 1; 3] <= 3.
Proof.
  apply (trimmed_robust 1 _ [2; 1; 3] [1000000000000]).
  - apply Permutation_cons; [reflexivity|]. apply (Permutation_cons_append [1; 3] 1000000000000).
  - cbn; lia.
  - cbn; lia.
  - intros h [<-|[<-|[<-|[]]]]; Lra.lra.
  - intros h [<-|[<-|[<-|[]]]]; Lra.lra.
Qed.

(* Krum: "drop the first of the m-f-1 smallest distances" IS "the m-f-2 nearest OTHER
   rows": the dropped entry is the distance of the row to itself *)
From TJ.proofs Require Import QPProofs C18Proofs ScalingProofs.
Theorem C16_krum_neighbourhood : forall G nc i, (i < length G)%nat ->
  nth i (krum_scores RN (krum_distances RN G) nc) 0 =
  vsumR (firstn nc (isort RN (map (fun j => krum_dist RN G i j)
                                   (seq 0 i ++ seq (S i) (length G - S i))))).
Proof. exact krum_scores_of_gramian. Qed.
Print Assumptions C16_krum_neighbourhood.

(* Krum looks at DIFFERENCES of rows only: adding one vector to every row (workers' gradients around a
   common mean, however large) changes neither the distances nor the selection, and moves the result by that
   vector.  (The harness runs Krum on float64 rows 2^30 + small deviations, which float32 cannot tell apart.) *)
From TJ.proofs Require Import KrumTranslate.
Theorem C16_krum_translation_invariant_selection : forall J v n f k,
  Forall (fun r => length r = n) J -> length v = n ->
  krum_distances RN (gram RN (translate v J)) = krum_distances RN (gram RN J) /\
  krum_weights_of_dist RN (krum_distances RN (gram RN (translate v J))) f k =
  krum_weights_of_dist RN (krum_distances RN (gram RN J)) f k.
Proof.
  intros J v n f k HJ Hv. split;
    [exact (krum_distances_translate J v n HJ Hv) | exact (krum_weights_translate J v n f k HJ Hv)].
Qed.
Print Assumptions C16_krum_translation_invariant_selection.

Theorem C16_krum_translation_equivariant : forall J v n f k, J <> [] ->
  Forall (fun r => length r = n) J -> length v = n -> (1 <= k)%nat ->
  agg_krum RN f k (translate v J) =
  match agg_krum RN f k J with Ok a => Ok (vadd RN a v) | Err e => Err e end.
Proof. exact agg_krum_translate. Qed.
Print Assumptions C16_krum_translation_equivariant.

(* instance gap: the executed TrimmedMean model maps to the real one *)
From Coq Require Import QArith Qreals.
From TJ Require Import NumQ.
From TJ.proofs Require Import TransferProofs TransferAggProofs.
Theorem C16_executed_trimmed_mean_is_the_real_model : forall b J,
  agg_trimmed_mean RN b (map (map Q2R) J)
  = match agg_trimmed_mean QN b J with Ok v => Ok (map Q2R v) | Err e => Err e end.
Proof. exact agg_trimmed_mean_Q_to_R. Qed.
Print Assumptions C16_executed_trimmed_mean_is_the_real_model.
