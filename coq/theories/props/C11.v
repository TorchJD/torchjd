(* C11 — aggregators are total, pure, stateless and positively homogeneous.  Proved: the validation
   rule, the output shape, and positive homogeneity of every aggregator (IMTL-G with its scale-free
   guard; the kernel-based ones under the contracts of their kernels).  Float-range finiteness, dtype,
   purity and statelessness are by-construction in a functional model and are OBSERVED, not proved. *)
From Coq Require Import Reals List Bool Arith Lia.
From TJ Require Import Num Linalg NumR Agg.
From TJ.proofs Require Import LinalgR C08Proofs C11Proofs C16Proofs.
Import ListNotations.
Local Open Scope R_scope.

(* the shared 2-d / finiteness check: Ok iff 2-d and finite, otherwise ValueError *)
Theorem C11_check_matrix : forall ndim finite,
  (check_matrix ndim finite = Ok tt <-> ndim = 2%nat /\ finite = true) /\
  (check_matrix ndim finite <> Ok tt -> check_matrix ndim finite = Err ValueError).
Proof. intros. split; [apply check_matrix_iff|apply check_matrix_err]. Qed.
Print Assumptions C11_check_matrix.

(* row-count rules: Constant / preference vectors, GradDrop's leak, TrimmedMean, Krum *)
Theorem C11_row_count_rules : forall (w : list R) b f k leak U (J : list (list R)),
  (length w <> length J -> agg_constant RN w J = Err ValueError) /\
  (length leak <> length J -> agg_graddrop RN (Some leak) U J = Err ValueError) /\
  ((length J < 2 * b + 1)%nat -> agg_trimmed_mean RN b J = Err ValueError) /\
  ((length J < f + 3)%nat \/ (length J < k)%nat -> agg_krum RN f k J = Err ValueError).
Proof.
  intros w b f k leak U J. split; [|split; [|split]].
  - intros H. unfold agg_constant, weighted. rewrite (proj2 (constant_weights_iff w (length J)) H). reflexivity.
  - intros H. unfold agg_graddrop. destruct (Nat.eqb_spec (length leak) (length J)); [contradiction|reflexivity].
  - apply trimmed_mean_few_rows.
  - apply krum_few_rows.
Qed.
Print Assumptions C11_row_count_rules.

(* one entry per column *)
Theorem C11_shape : forall n J, wfmat n J -> J <> [] ->
  (forall r v, weighted RN J r = Ok v -> length v = ncols J) /\
  (forall b v, agg_trimmed_mean RN b J = Ok v -> length v = ncols J) /\
  (forall leak U v, length U = ncols J -> agg_graddrop RN leak U J = Ok v -> length v = ncols J).
Proof.
  intros n J HJ Hne. split; [|split].
  - intros r v. apply (weighted_shape n); assumption.
  - intros b v. apply trimmed_mean_shape.
  - intros leak U v. apply graddrop_shape.
Qed.
Print Assumptions C11_shape.

(* A(tJ) = t A(J): every fixed weighting (Mean, Sum, Constant, Random under a fixed draw) *)
Theorem C11_homogeneous_fixed_weights : forall n t J w, wfmat n J ->
  combineR (mscale RN t J) w = vscaleR t (combineR J w).
Proof. intros n t J w _. apply combine_mscale. Qed.
Print Assumptions C11_homogeneous_fixed_weights.

(* ... any weighting that is invariant under positive scaling of the Gramian *)
Theorem C11_homogeneous_meta : forall n t J (Omega : list (list R) -> res (list R)), wfmat n J ->
  Omega (mscale RN (t * t) (gramR J)) = Omega (gramR J) ->
  weighted RN (mscale RN t J) (Omega (gramR (mscale RN t J))) =
  res_map (vscaleR t) (weighted RN J (Omega (gramR J))).
Proof. intros n t J Omega _. apply homogeneous_meta. Qed.
Print Assumptions C11_homogeneous_meta.

Theorem C11_homogeneous_mgda : forall n t eps iters J, wfmat n J -> 0 < t ->
  agg_mgda RN eps iters (mscale RN t J) = vscaleR t (agg_mgda RN eps iters J).
Proof. intros n t eps iters J _. apply mgda_homogeneous. Qed.
Print Assumptions C11_homogeneous_mgda.

Theorem C11_homogeneous_trimmed_mean : forall t b J, 0 < t ->
  agg_trimmed_mean RN b (mscale RN t J) = res_map (vscaleR t) (agg_trimmed_mean RN b J).
Proof. exact trimmed_mean_homogeneous. Qed.
Print Assumptions C11_homogeneous_trimmed_mean.

(* IMTL-G (scale-free guard); P/t^2 is the pseudo-inverse of t^2 G *)
Theorem C11_homogeneous_imtlg : forall n t P thr J, wfmat n J -> 0 < t -> 0 < thr ->
  agg_imtlg RN (mscale RN (1 / (t * t)) P) thr (mscale RN t J) = vscaleR t (agg_imtlg RN P thr J).
Proof. intros n t P thr J _. apply imtlg_homogeneous. Qed.
Print Assumptions C11_homogeneous_imtlg.

(* under the absolute guard of imtlg_weights_v0 homogeneity fails (regression witness D3) *)
Theorem C11_imtlg_v0_refuted :
  exists (J P P' : list (list R)) (t : R), 0 < t /\ P' = mscale RN (1 / (t * t)) P /\
    combineR (mscale RN t J) (imtlg_weights_v0 RN P' (gramR (mscale RN t J)) (1 / 10 ^ 12)) <>
    vscaleR t (combineR J (imtlg_weights_v0 RN P (gramR J) (1 / 10 ^ 12))).
Proof. exact imtlg_v0_not_homogeneous. Qed.
Print Assumptions C11_imtlg_v0_refuted.

(* homogeneity of the remaining aggregators.  Kernel oracles on the scaled side receive
   the scaled arguments (sigma_max t*s, eigenvalues t^2*lam, the same pinv oracle for the unchanged
   unit rows, the same conic answer in the invariant normalised geometry): homogeneity of the
   kernels themselves is the oracle contract, the glue is what is proved. *)
From TJ.proofs Require Import QPProofs C03Proofs C18Proofs C16Proofs HomogeneityProofs.
Theorem C11_homogeneous_pcgrad : forall n t perms J, wfmat n J -> 0 < t ->
  agg_pcgrad RN perms (mscale RN t J) = vscaleR t (agg_pcgrad RN perms J).
Proof. intros n t perms J _. apply pcgrad_homogeneous. Qed.
Print Assumptions C11_homogeneous_pcgrad.
Theorem C11_homogeneous_krum : forall n t f k J, wfmat n J -> 0 < t ->
  agg_krum RN f k (mscale RN t J) = C08Proofs.res_map (vscaleR t) (agg_krum RN f k J).
Proof. intros n t f k J _. apply krum_homogeneous. Qed.
Print Assumptions C11_homogeneous_krum.
Theorem C11_homogeneous_dualproj : forall n t qp pref s ne re J, wfmat n J -> 0 < t ->
  nltb RN (t * s) ne = nltb RN s ne ->
  agg_dualproj RN qp pref (t * s) ne re (mscale RN t J) =
  C08Proofs.res_map (vscaleR t) (agg_dualproj RN qp pref s ne re J).
Proof. intros n t qp pref s ne re J _. apply dualproj_homogeneous. Qed.
Print Assumptions C11_homogeneous_dualproj.
Theorem C11_homogeneous_upgrad : forall n t qp pref s ne re J, wfmat n J -> 0 < t ->
  nltb RN (t * s) ne = nltb RN s ne ->
  agg_upgrad RN qp pref (t * s) ne re (mscale RN t J) =
  C08Proofs.res_map (vscaleR t) (agg_upgrad RN qp pref s ne re J).
Proof. intros n t qp pref s ne re J _. apply upgrad_homogeneous. Qed.
Print Assumptions C11_homogeneous_upgrad.
Theorem C11_homogeneous_cagrad : forall n t s ne c w_opt J, wfmat n J -> 0 < t ->
  nltb RN (t * s) ne = nltb RN s ne ->
  agg_cagrad RN (t * s) ne c w_opt (mscale RN t J) = vscaleR t (agg_cagrad RN s ne c w_opt J).
Proof. intros n t s ne c w_opt J _. apply cagrad_homogeneous. Qed.
Print Assumptions C11_homogeneous_cagrad.
Theorem C11_homogeneous_config : forall t B pref J, 0 < t ->
  config_units RN (mscale RN t J) = config_units RN J /\
  agg_config RN B pref (mscale RN t J) = C08Proofs.res_map (vscaleR t) (agg_config RN B pref J).
Proof. exact config_homogeneous. Qed.
Print Assumptions C11_homogeneous_config.
Theorem C11_homogeneous_aligned : forall n t lam Vt tol pref J, wfmat n J -> 0 < t ->
  agg_aligned RN (vscaleR (t * t) lam) Vt (t * t * tol) pref (mscale RN t J) =
  C08Proofs.res_map (vscaleR t) (agg_aligned RN lam Vt tol pref J).
Proof. intros n t lam Vt tol pref J _. apply aligned_homogeneous. Qed.
Print Assumptions C11_homogeneous_aligned.
Theorem C11_homogeneous_graddrop : forall t leak U J, 0 < t ->
  agg_graddrop RN leak U (mscale RN t J) = C08Proofs.res_map (vscaleR t) (agg_graddrop RN leak U J).
Proof. exact graddrop_homogeneous. Qed.
Print Assumptions C11_homogeneous_graddrop.
