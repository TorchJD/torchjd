(* C09 — linear under scaling.  Fixed-weight family, PCGrad (every schedule), ConFIG, UPGrad without
   regularisation (exact) and with it (defect <= const * sqrt(reg_eps), vanishing). *)
From Coq Require Import Reals List Bool Arith.
From TJ Require Import Num Linalg NumR Agg.
From TJ.proofs Require Import LinalgR C10Proofs.
Import ListNotations.
Local Open Scope R_scope.

(* diag(c) J with ANY fixed weight vector w (Mean: 1/m, Sum: 1, Constant: its weights, Random: the
   softmax of the fixed draw):  A(diag(a c1 + b c2) J) = a A(diag(c1) J) + b A(diag(c2) J),
   for all c1, c2, a, b (not only positive ones) *)
Theorem C09_fixed_weights : forall n J w a c1 b c2, wfmat n J -> J <> [] ->
  length w = length J -> length c1 = length J -> length c2 = length J ->
  combineR (scale_rows (vaddR (vscaleR a c1) (vscaleR b c2)) J) w =
  vaddR (vscaleR a (combineR (scale_rows c1 J) w)) (vscaleR b (combineR (scale_rows c2 J) w)).
Proof. exact fixed_weights_linear. Qed.
Print Assumptions C09_fixed_weights.

(* the weights of Mean / Sum / Constant / Random do not depend on the matrix entries *)
Theorem C09_weights_are_fixed : forall (J J' : list (list R)) w e, length J = length J' ->
  agg_mean RN J = combineR J (mean_weights RN (length J')) /\
  agg_sum RN J = combineR J (sum_weights RN (length J')) /\
  (length w = length J -> agg_constant RN w J = Ok (combineR J w)) /\
  agg_random RN e J = combineR J (random_weights RN e).
Proof.
  intros J J' w e H. unfold agg_mean, agg_sum, agg_random, agg_constant, weighted, constant_weights.
  rewrite <- H. repeat split. intros Hw. rewrite Hw, Nat.eqb_refl. reflexivity.
Qed.
Print Assumptions C09_weights_are_fixed.

From TJ.proofs Require Import QPProofs C18Proofs C16Proofs ScalingProofs.
(* PCGrad, for EVERY fixed schedule of projection orders: conflict tests are invariant under
   positive scaling of either row, the subtracted projection does not depend on the scale of the
   row projected on, and everything scales with the row's own factor *)
Theorem C09_pcgrad_projection_scales : forall J c i t, length c = length J -> allpos c -> 0 < t ->
  forall perm g, pc_vec (rscale c J) i perm (vscaleR t g) = vscaleR t (pc_vec J i perm g).
Proof. exact pc_vec_rscale. Qed.
Print Assumptions C09_pcgrad_projection_scales.
Theorem C09_pcgrad : forall n J perms a b c1 c2, wfmat n J -> J <> [] ->
  (length perms <= length J)%nat -> Forall (Forall (fun j => (j < length J)%nat)) perms ->
  length c1 = length J -> length c2 = length J ->
  allpos c1 -> allpos c2 -> allpos (vaddR (vscaleR a c1) (vscaleR b c2)) ->
  agg_pcgrad RN perms (rscale (vaddR (vscaleR a c1) (vscaleR b c2)) J) =
  vaddR (vscaleR a (agg_pcgrad RN perms (rscale c1 J))) (vscaleR b (agg_pcgrad RN perms (rscale c2 J))).
Proof. exact pcgrad_linear_under_scaling_gen. Qed.
Print Assumptions C09_pcgrad.
(* ConFIG: the unit rows (hence the pseudo-inverse oracle's argument, hence the direction) do not
   depend on positive row scales, and the length is linear in them *)
Theorem C09_config_units_scale_free : forall J c, length c = length J -> allpos c ->
  config_units RN (rscale c J) = config_units RN J.
Proof. exact config_units_rscale. Qed.
Print Assumptions C09_config_units_scale_free.
Theorem C09_config : forall B pref a b c1 c2 J w,
  length c1 = length J -> length c2 = length J ->
  pref_weights pref (sum_weights RN (length J)) (length J) = Ok w ->
  exists v1 v2, agg_config RN B pref (rscale c1 J) = Ok v1 /\ agg_config RN B pref (rscale c2 J) = Ok v2 /\
    agg_config RN B pref (rscale (vaddR (vscaleR a c1) (vscaleR b c2)) J) = Ok (vaddR (vscaleR a v1) (vscaleR b v2)).
Proof. exact config_linear_under_scaling. Qed.
Print Assumptions C09_config.

(* UPGrad: WITHOUT regularisation the map c -> A(diag(c) J) is exactly linear on positive
   vectors — the idealisation behind "the defect vanishes as reg_eps -> 0".  For ANY QP oracle that
   returns minimisers on the four matrices involved (each with its own sigma_max) *)
From TJ.proofs Require Import C03Proofs C08Proofs C11Proofs EquivarianceProofs MgdaProofs PublishedProofs ImpartialProofs SpectralProofs.
Theorem C09_upgrad_unregularised : forall n J qp pref s s1 s2 s12 ne a b c1 c2 u,
  wfmat n J -> J <> [] -> length c1 = length J -> length c2 = length J ->
  allpos c1 -> allpos c2 -> 0 < a -> 0 < b ->
  pref_weights pref (mean_weights RN (length J)) (length J) = Ok u ->
  let c12 := vaddR (vscaleR a c1) (vscaleR b c2) in
  qp_unreg_ok qp J s ne u -> qp_unreg_ok qp (rscale c1 J) s1 ne u ->
  qp_unreg_ok qp (rscale c2 J) s2 ne u -> qp_unreg_ok qp (rscale c12 J) s12 ne u ->
  exists x1 x2, agg_upgrad RN qp pref s1 ne 0 (rscale c1 J) = Ok x1 /\
    agg_upgrad RN qp pref s2 ne 0 (rscale c2 J) = Ok x2 /\
    agg_upgrad RN qp pref s12 ne 0 (rscale c12 J) = Ok (vaddR (vscaleR a x1) (vscaleR b x2)).
Proof. exact agg_upgrad_unreg_linear_under_scaling. Qed.
Print Assumptions C09_upgrad_unregularised.

(* UPGrad WITH regularisation: the defect of the identity is at most
   sqrt(reg_eps)/2 * (s12 W12 + a s1 W1 + b s2 W2), where s. are the sigma_max of the three scaled
   matrices and W. = sum_i |w0_i| the summed norms of the UNREGULARISED one-hot minimisers (they do
   not depend on reg_eps): "bounded by a constant times sqrt(reg_eps) * s * |w|".  qp0 is any
   oracle that answers the unregularised problems (it fixes the constants), qp the oracle the model
   runs with at reg_eps = re *)
From TJ.proofs Require Import RegBoundProofs.
Theorem C09_qp_regularisation_perturbs_by_sqrt : forall m G e u w0 we,
  length G = m -> wfmat m G -> symm m G -> 0 <= e ->
  is_min m G u w0 -> is_min m (regularize RN G e) u we ->
  qf G (vsubR we w0) <= e * dotR we (vsubR w0 we) /\
  e * dotR we (vsubR w0 we) <= e * (dotR w0 w0) / 4.
Proof. exact qp_reg_perturbation. Qed.
Print Assumptions C09_qp_regularisation_perturbs_by_sqrt.
Theorem C09_upgrad_defect_bound : forall n J qp0 qp pref s s1 s2 s12 ne re a b c1 c2 u,
  wfmat n J -> J <> [] -> length c1 = length J -> length c2 = length J ->
  allpos c1 -> allpos c2 -> 0 < a -> 0 < b -> 0 <= re ->
  pref_weights pref (mean_weights RN (length J)) (length J) = Ok u ->
  let c12 := vaddR (vscaleR a c1) (vscaleR b c2) in
  qp_unreg_ok qp0 J s ne u ->
  qp_unreg_ok qp0 (rscale c1 J) s1 ne u -> qp_unreg_ok qp0 (rscale c2 J) s2 ne u ->
  qp_unreg_ok qp0 (rscale c12 J) s12 ne u ->
  qp_reg_ok qp (rscale c1 J) s1 ne re u -> qp_reg_ok qp (rscale c2 J) s2 ne re u ->
  qp_reg_ok qp (rscale c12 J) s12 ne re u ->
  exists y1 y2 y12,
    agg_upgrad RN qp pref s1 ne re (rscale c1 J) = Ok y1 /\
    agg_upgrad RN qp pref s2 ne re (rscale c2 J) = Ok y2 /\
    agg_upgrad RN qp pref s12 ne re (rscale c12 J) = Ok y12 /\
    nrm (vsubR y12 (vaddR (vscaleR a y1) (vscaleR b y2))) <=
    sqrt re / 2 * (s12 * upgrad_Wsum qp0 (rscale c12 J) s12 ne u
                   + a * (s1 * upgrad_Wsum qp0 (rscale c1 J) s1 ne u)
                   + b * (s2 * upgrad_Wsum qp0 (rscale c2 J) s2 ne u)).
Proof.
  intros n J qp0 qp pref s s1 s2 s12 ne re a b c1 c2 u HJ HJne H1 H2 P1 P2 Ha Hb Hre Hpw c12 Hq Hq1 Hq2 Hq12.
  exact (upgrad_scaling_defect n J qp0 pref s s1 s2 s12 ne a b c1 c2 u HJ HJne H1 H2 P1 P2 Ha Hb Hpw
           Hq Hq1 Hq2 Hq12 qp re Hre).
Qed.
Print Assumptions C09_upgrad_defect_bound.
(* ... and it vanishes as reg_eps -> 0 (delta does not depend on the regularised oracle) *)
Theorem C09_upgrad_defect_vanishes : forall n J qp0 pref s s1 s2 s12 ne a b c1 c2 u,
  wfmat n J -> J <> [] -> length c1 = length J -> length c2 = length J ->
  allpos c1 -> allpos c2 -> 0 < a -> 0 < b ->
  pref_weights pref (mean_weights RN (length J)) (length J) = Ok u ->
  let c12 := vaddR (vscaleR a c1) (vscaleR b c2) in
  qp_unreg_ok qp0 J s ne u ->
  qp_unreg_ok qp0 (rscale c1 J) s1 ne u -> qp_unreg_ok qp0 (rscale c2 J) s2 ne u ->
  qp_unreg_ok qp0 (rscale c12 J) s12 ne u ->
  forall eps, 0 < eps ->
  exists delta, 0 < delta /\
    forall re qp, 0 <= re < delta ->
      qp_reg_ok qp (rscale c1 J) s1 ne re u -> qp_reg_ok qp (rscale c2 J) s2 ne re u ->
      qp_reg_ok qp (rscale c12 J) s12 ne re u ->
      exists y1 y2 y12,
        agg_upgrad RN qp pref s1 ne re (rscale c1 J) = Ok y1 /\
        agg_upgrad RN qp pref s2 ne re (rscale c2 J) = Ok y2 /\
        agg_upgrad RN qp pref s12 ne re (rscale c12 J) = Ok y12 /\
        nrm (vsubR y12 (vaddR (vscaleR a y1) (vscaleR b y2))) < eps.
Proof. exact upgrad_scaling_defect_vanishes. Qed.
Print Assumptions C09_upgrad_defect_vanishes.
(* the regularised oracle contract is satisfiable for every reg_eps >= 0 (no-conflict matrices) *)
Theorem C09_reg_contract_satisfiable : forall n J c s' ne re u, wfmat n J -> 0 < s' ->
  nltb RN s' ne = false -> 0 <= re -> allpos c ->
  (forall r r', In r J -> In r' J -> 0 <= dotR r r') -> nonneg u ->
  qp_reg_ok (fun _ x => x) (rscale c J) s' ne re u.
Proof. exact qp_reg_ok_no_conflict_rscale. Qed.
Print Assumptions C09_reg_contract_satisfiable.
