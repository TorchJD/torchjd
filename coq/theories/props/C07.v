(* C07 — parallel_chunk_size is a pure performance knob.  Obligations only. *)
From Coq Require Import List Bool Arith.
From TJ Require Import Chunk.
From TJ.proofs Require Import ChunkProofs.
Import ListNotations.

(* exactly ceil(m/k) sweeps *)
Theorem C07_sweep_count : forall m k retain, valid_chunk k = true -> 1 <= m ->
  length (chunk_plan m k retain) = ceil_div m (max_chunk m k).
Proof. exact plan_count. Qed.
Print Assumptions C07_sweep_count.

(* the sweeps are contiguous, in order, and cover rows 0..m-1 exactly once *)
Theorem C07_plan_covers : forall m k retain, valid_chunk k = true -> 1 <= m ->
  concat (map chunk_rows (chunk_plan m k retain)) = seq 0 m.
Proof. exact plan_rows_cover. Qed.
Print Assumptions C07_plan_covers.

(* each sweep has between 1 and k rows, stays inside [0,m), and is batched iff it has > 1 row *)
Theorem C07_sweep_sizes : forall m k retain c, valid_chunk k = true -> 1 <= m ->
  In c (chunk_plan m k retain) ->
  1 <= c_len c /\ c_len c <= max_chunk m k /\ c_start c + c_len c <= m /\
  c_batched c = negb (c_len c =? 1).
Proof. exact plan_sizes. Qed.
Print Assumptions C07_sweep_sizes.

(* the result of row-wise differentiation does not depend on the chunk size:
   for ANY per-row function f (the vector-Jacobian product of row r), any two valid chunk sizes
   and any retain flags give the same stacked rows, namely f 0 .. f (m-1). *)
Theorem C07_value_independent : forall (A : Type) (f : nat -> A) m k retain,
  valid_chunk k = true -> 1 <= m ->
  run_plan f (chunk_plan m k retain) = map f (seq 0 m).
Proof. exact @run_plan_rows. Qed.
Print Assumptions C07_value_independent.

(* chunk size 1: strictly sequential, never batched (no vmap) *)
Theorem C07_sequential_k1 : forall m retain c, 1 <= m ->
  In c (chunk_plan m (Some 1) retain) -> c_batched c = false /\ c_len c = 1.
Proof. exact plan_sequential_k1. Qed.
Print Assumptions C07_sequential_k1.

(* a single row: never batched, whatever the chunk size *)
Theorem C07_single_row : forall k retain c, valid_chunk k = true ->
  In c (chunk_plan 1 k retain) -> c_batched c = false.
Proof. exact plan_single_row. Qed.
Print Assumptions C07_single_row.

(* None, and any k >= m, mean one sweep of all m rows *)
Theorem C07_none_is_one_sweep : forall m retain, 1 <= m ->
  chunk_plan m None retain = [mkChunk 0 m (negb (m =? 1)) retain].
Proof. exact plan_none_single. Qed.
Print Assumptions C07_none_is_one_sweep.

Theorem C07_large_k_is_one_sweep : forall m k retain, 1 <= m -> m <= k ->
  chunk_plan m (Some k) retain = [mkChunk 0 m (negb (m =? 1)) retain].
Proof. exact plan_large_k. Qed.
Print Assumptions C07_large_k_is_one_sweep.

(* all sweeps but the last retain the graph; the last one uses the caller's flag (shared with C13) *)
Theorem C07_retain_flags : forall m k retain,
  exists front last, chunk_plan m k retain = front ++ [last] /\
    Forall (fun c => c_retain c = true) front /\ c_retain last = retain.
Proof. exact plan_retain_flags. Qed.
Print Assumptions C07_retain_flags.

(* non-vacuity: a concrete plan *)
Example C07_example : chunk_plan 7 (Some 3) false =
  [mkChunk 0 3 true true; mkChunk 3 3 true true; mkChunk 6 1 false false].
Proof. vm_compute. reflexivity. Qed.

(* ---- the ENTRY POINTS: the engine runs an accepted backward / mtl_backward call issues are
   exactly the chunk plan of m = total number of output scalars (resp. number of losses) — hence
   exactly ceil(m/k) sweeps of 1..k rows covering m rows, never batched when k = 1 or m = 1 ---- *)
From TJ Require Import Num Linalg Autojac Traverse.
From TJ.proofs Require Import AutojacBasics EntrySpec C20Proofs C13Proofs SweepCountProofs.
Section C07entry.
Context {T : Type} (N : Num T) (P : prog T) (A : list (list T) -> res (list T)).
Theorem C07_backward_sweeps : forall tensors ord k retain s d' s',
  ord <> [] -> 1 <= total_rows P tensors ->
  backward_model N P A tensors ord k retain s = (Ok d', s') ->
  plan_log_spec tensors ord (total_rows P tensors) k (new_sweeps s s').
Proof. exact (backward_sweeps_spec N P A). Qed.
Theorem C07_backward_sequential : forall tensors ord k retain s d' s',
  ord <> [] -> 1 <= total_rows P tensors ->
  backward_model N P A tensors ord k retain s = (Ok d', s') ->
  k = Some 1 \/ total_rows P tensors = 1 ->
  forall w, In w (firstn (length (s_log s') - length (s_log s)) (s_log s')) -> sw_batched w = false.
Proof. exact (backward_sequential N P A). Qed.
Theorem C07_mtl_sweeps : forall losses features tasks shared k retain s d' s',
  shared <> [] ->
  mtl_backward_model N P A losses features tasks shared k retain s = (Ok d', s') ->
  exists trunk heads,
    s_log s' = trunk ++ heads ++ s_log s /\
    plan_log_spec features shared (length losses) k trunk /\
    heads = rev (map (task_sweep features retain) (combine tasks losses)) /\
    length heads = length losses /\
    (forall w, In w heads -> sw_rows w = 1 /\ sw_batched w = false /\ sw_retain w = retain).
Proof. exact (mtl_sweeps_spec N P A). Qed.
Theorem C07_mtl_sequential : forall losses features tasks shared k retain s d' s',
  shared <> [] ->
  mtl_backward_model N P A losses features tasks shared k retain s = (Ok d', s') ->
  k = Some 1 \/ length losses = 1 ->
  forall w, In w (firstn (length (s_log s') - length (s_log s)) (s_log s')) -> sw_batched w = false.
Proof. exact (mtl_sequential N P A). Qed.
End C07entry.
Print Assumptions C07_backward_sweeps.
Print Assumptions C07_backward_sequential.
Print Assumptions C07_mtl_sweeps.
Print Assumptions C07_mtl_sequential.
