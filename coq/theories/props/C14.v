(* C14 — transform pipelines are key-typed: ill-formed ones cannot be built or run.
   Obligations only.  All statements hold for every key universe, every nesting depth, every
   number type, program and aggregator (structural induction on transform terms). *)
From Coq Require Import List Bool Arith.
From TJ Require Import Num Linalg Chunk Autojac.
From TJ.proofs Require Import C14Proofs.
Import ListNotations.

Section C14.
Context {T : Type} (N : Num T) (P : prog T) (A : list (list T) -> res (list T)).

(* composing succeeds exactly when the outer transform requires the keys the inner one outputs *)
Theorem C14_compose_iff : forall o i,
  wf (TComp o i) = true <->
  (wf o = true /\ wf i = true /\ forall k, In k (required_keys o) <-> In k (output_keys i)).
Proof. exact compose_iff. Qed.

(* a conjunction exactly when all members require the same keys and output disjoint keys *)
Theorem C14_conj_iff : forall ts,
  wf (TConj ts) = true <->
  (Forall (fun t => wf t = true) ts
   /\ (forall t1 t2, In t1 ts -> In t2 ts ->
         forall k, In k (required_keys t1) <-> In k (required_keys t2))
   /\ NoDup (flat_map output_keys ts)).
Proof. exact conj_iff. Qed.

Theorem C14_stack_iff : forall ts,
  wf (TStack ts) = true <->
  (Forall (fun t => wf t = true) ts
   /\ (forall t1 t2, In t1 ts -> In t2 ts ->
         forall k, In k (required_keys t1) <-> In k (required_keys t2))).
Proof. exact stack_iff. Qed.

Theorem C14_select_iff : forall keys req,
  wf (TSelect keys req) = true <-> (forall k, In k keys -> In k req).
Proof. exact select_iff. Qed.

(* ordered key lists must be duplicate-free *)
Theorem C14_diag_iff : forall c, wf (TDiag c) = true <-> NoDup c.
Proof. exact diag_iff. Qed.

(* applying any transform to a dictionary whose key set differs from its required keys raises
   ValueError — and changes nothing *)
Theorem C14_key_check : forall t s d,
  set_eqb (dkeys d) (required_keys t) = false -> run N P A t s d = (Err ValueError, s).
Proof. exact (AutojacBasics.run_key_fail N P A). Qed.

(* whenever construction and application succeed, the result has exactly the declared output
   keys and the declared type (for a conjunction: the least common ancestor of the parts) *)
Theorem C14_output_typed : forall t s d d' s',
  wf t = true -> run N P A t s d = (Ok d', s') ->
  (forall k, In k (dkeys d') <-> In k (output_keys t)) /\ dk d' = out_kind t (dk d).
Proof. exact (output_typed N P A). Qed.

(* composition is associative: construction, keys and application *)
Theorem C14_comp_assoc_wf : forall a b c, wf (TComp (TComp a b) c) = wf (TComp a (TComp b c)).
Proof. exact comp_assoc_wf. Qed.
Theorem C14_comp_assoc_run : forall a b c s d,
  run N P A (TComp (TComp a b) c) s d = run N P A (TComp a (TComp b c)) s d.
Proof. exact (comp_assoc_run N P A). Qed.
Theorem C14_comp_assoc_keys : forall a b c,
  required_keys (TComp (TComp a b) c) = required_keys (TComp a (TComp b c)) /\
  output_keys (TComp (TComp a b) c) = output_keys (TComp a (TComp b c)).
Proof. exact comp_assoc_keys. Qed.

(* conjunction is commutative (side-effect-free members): same acceptance, same mapping, same type *)
Theorem C14_conj_comm_wf : forall a b, wf (TConj [a; b]) = wf (TConj [b; a]).
Proof. exact conj_comm_wf. Qed.
Theorem C14_conj_comm : forall a b s d da s',
  pure a = true -> pure b = true -> wf (TConj [a; b]) = true ->
  run N P A (TConj [a; b]) s d = (Ok da, s') ->
  exists db, run N P A (TConj [b; a]) s d = (Ok db, s') /\ dict_equiv da db.
Proof. exact (conj_comm N P A). Qed.

End C14.

(* the dictionary-type lattice: lca is the least upper bound in the subclass order *)
Theorem C14_lca_upper : forall a b, subkind a (lca a b) = true /\ subkind b (lca a b) = true.
Proof. exact lca_upper. Qed.
Theorem C14_lca_least : forall a b c,
  subkind a c = true -> subkind b c = true -> subkind (lca a b) c = true.
Proof. exact lca_least. Qed.
Theorem C14_lca_comm : forall a b, lca a b = lca b a.
Proof. exact lca_comm. Qed.
Theorem C14_lca_assoc : forall a b c, lca (lca a b) c = lca a (lca b c).
Proof. exact lca_assoc. Qed.

Print Assumptions C14_compose_iff.
Print Assumptions C14_conj_iff.
Print Assumptions C14_stack_iff.
Print Assumptions C14_select_iff.
Print Assumptions C14_diag_iff.
Print Assumptions C14_key_check.
Print Assumptions C14_output_typed.
Print Assumptions C14_comp_assoc_wf.
Print Assumptions C14_comp_assoc_run.
Print Assumptions C14_comp_assoc_keys.
Print Assumptions C14_conj_comm_wf.
Print Assumptions C14_conj_comm.
Print Assumptions C14_lca_upper.
Print Assumptions C14_lca_least.
Print Assumptions C14_lca_comm.
Print Assumptions C14_lca_assoc.

(* CONJUNCTION IS ASSOCIATIVE: the three groupings are accepted together, declare the same keys, and
   whenever two groupings both succeed they yield the same mapping and type.  Success itself is NOT
   grouping-independent (C14AssocProofs.conj_assoc_counterexample: an inner union is type-checked with its own
   least common ancestor) — observed identically on the implementation. *)
From TJ.proofs Require Import C14AssocProofs.
Section C14Assoc.
Context {T : Type} (N : Num T) (P : prog T) (A : list (list T) -> res (list T)).
Theorem C14_conj_assoc_wf : forall a b c,
  wf (TConj [TConj [a; b]; c]) = wf (TConj [a; TConj [b; c]]).
Proof. exact conj_assoc_wf. Qed.
Theorem C14_conj_flat_wf : forall a b c,
  wf (TConj [TConj [a; b]; c]) = wf (TConj [a; b; c]).
Proof. exact conj_flat_wf. Qed.
Theorem C14_conj_assoc_keys : forall a b c k,
  (In k (required_keys (TConj [TConj [a; b]; c])) <-> In k (required_keys (TConj [a; TConj [b; c]]))) /\
  (In k (output_keys (TConj [TConj [a; b]; c])) <-> In k (output_keys (TConj [a; TConj [b; c]]))).
Proof. exact conj_assoc_keys. Qed.
Theorem C14_conj_assoc : forall a b c s d d1 s1 d2 s2,
  pure a = true -> pure b = true -> pure c = true ->
  wf (TConj [TConj [a; b]; c]) = true ->
  run N P A (TConj [TConj [a; b]; c]) s d = (Ok d1, s1) ->
  run N P A (TConj [a; TConj [b; c]]) s d = (Ok d2, s2) ->
  dict_equiv d1 d2 /\ s1 = s2.
Proof. exact (conj_assoc_both N P A). Qed.
Theorem C14_conj_flat : forall a b c s d d1 s1,
  pure a = true -> pure b = true -> pure c = true ->
  wf (TConj [TConj [a; b]; c]) = true ->
  run N P A (TConj [TConj [a; b]; c]) s d = (Ok d1, s1) ->
  exists d2, run N P A (TConj [a; b; c]) s d = (Ok d2, s1) /\ dict_equiv d1 d2.
Proof. exact (conj_flat N P A). Qed.
End C14Assoc.
Print Assumptions C14_conj_assoc_wf.
Print Assumptions C14_conj_flat_wf.
Print Assumptions C14_conj_assoc_keys.
Print Assumptions C14_conj_assoc.
Print Assumptions C14_conj_flat.

(* non-vacuity: a well-formed nested term and an ill-formed one *)
Example C14_wf_example :
  wf (TComp (TConj [TSelect [0] [0; 1]; TSelect [1] [0; 1]]) (TInit [0; 1])) = true /\
  wf (TComp (TSelect [0] [0; 1]) (TInit [0])) = false /\
  wf (TConj [TInit [0]; TInit [0]]) = false.
Proof. vm_compute. repeat split. Qed.
