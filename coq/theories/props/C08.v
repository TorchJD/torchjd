(* C08 — weighted aggregators stay in the row span and only look at the Gramian. *)
From Coq Require Import Reals List Bool Arith Lia.
From TJ Require Import Num Linalg NumR Agg.
From TJ.proofs Require Import LinalgR C08Proofs.
Import ListNotations.
Local Open Scope R_scope.

(* Q has n rows of length p, orthonormal (Q Q^T = I_n): orthogonal matrices (p = n), column
   permutations, and insertions of all-zero columns (Q = [I | 0] up to permutation, p > n). *)
Theorem C08_gram_invariant : forall n p J Q, orth n p Q -> wfmat n J ->
  gramR (mmul RN p J Q) = gramR J.
Proof. exact gram_mmul. Qed.
Print Assumptions C08_gram_invariant.

(* meta-theorem: ANY weighting that is a function of the Gramian commutes with Q *)
Theorem C08_orthogonal_meta : forall n p J Q (Omega : list (list R) -> res (list R)),
  orth n p Q -> wfmat n J -> J <> [] ->
  weighted RN (mmul RN p J Q) (Omega (gramR (mmul RN p J Q))) =
  res_map (fun v => vmR p v Q) (weighted RN J (Omega (gramR J))).
Proof. exact orthogonal_meta_res. Qed.
Print Assumptions C08_orthogonal_meta.

(* every weighted model IS of that form (same oracle answers / same draws on both sides:
   they are functions of the Gramian, resp. independent of the columns) *)
Theorem C08_gramian_form : forall J,
  (Ok (agg_mean RN J) = weighted RN J (Om_mean (gramR J))) /\
  (Ok (agg_sum RN J) = weighted RN J (Om_sum (gramR J))) /\
  (forall w, agg_constant RN w J = weighted RN J (Om_constant w (gramR J))) /\
  (forall e, Ok (agg_random RN e J) = weighted RN J (Om_random e (gramR J))) /\
  (forall qp pref s ne re,
     agg_dualproj RN qp pref s ne re J = weighted RN J (Om_dualproj qp pref s ne re (gramR J))) /\
  (forall qp pref s ne re,
     agg_upgrad RN qp pref s ne re J = weighted RN J (Om_upgrad qp pref s ne re (gramR J))) /\
  (forall eps iters, Ok (agg_mgda RN eps iters J) = weighted RN J (Om_mgda eps iters (gramR J))) /\
  (forall perms, Ok (agg_pcgrad RN perms J) = weighted RN J (Om_pcgrad perms (gramR J))) /\
  (forall f k, agg_krum RN f k J = weighted RN J (Om_krum f k (gramR J))) /\
  (forall P thr, Ok (agg_imtlg RN P thr J) = weighted RN J (Om_imtlg P thr (gramR J))) /\
  (forall s ne c w_opt,
     Ok (agg_cagrad RN s ne c w_opt J) = weighted RN J (Om_cagrad s ne c w_opt (gramR J))) /\
  (forall lam Vt tol pref,
     agg_aligned RN lam Vt tol pref J = weighted RN J (Om_aligned lam Vt tol pref (gramR J))).
Proof.
  intros J. repeat match goal with |- _ /\ _ => split end; intros.
  - apply gf_mean. - apply gf_sum. - apply gf_constant. - apply gf_random.
  - apply gf_dualproj. - apply gf_upgrad. - apply gf_mgda. - apply gf_pcgrad.
  - apply gf_krum. - apply gf_imtlg. - apply gf_cagrad. - apply gf_aligned.
Qed.
Print Assumptions C08_gramian_form.

(* spelled-out instances: A(J Q) = A(J) Q *)
Theorem C08_orthogonal_instances : forall n p J Q, orth n p Q -> wfmat n J -> J <> [] ->
  agg_mean RN (mmul RN p J Q) = vmR p (agg_mean RN J) Q /\
  agg_sum RN (mmul RN p J Q) = vmR p (agg_sum RN J) Q /\
  (forall w, agg_constant RN w (mmul RN p J Q) = res_map (fun v => vmR p v Q) (agg_constant RN w J)) /\
  (forall qp pref s ne re, agg_upgrad RN qp pref s ne re (mmul RN p J Q) =
      res_map (fun v => vmR p v Q) (agg_upgrad RN qp pref s ne re J)) /\
  (forall qp pref s ne re, agg_dualproj RN qp pref s ne re (mmul RN p J Q) =
      res_map (fun v => vmR p v Q) (agg_dualproj RN qp pref s ne re J)) /\
  (forall eps iters, agg_mgda RN eps iters (mmul RN p J Q) = vmR p (agg_mgda RN eps iters J) Q) /\
  (forall perms, agg_pcgrad RN perms (mmul RN p J Q) = vmR p (agg_pcgrad RN perms J) Q) /\
  (forall f k, agg_krum RN f k (mmul RN p J Q) = res_map (fun v => vmR p v Q) (agg_krum RN f k J)) /\
  (forall P thr, agg_imtlg RN P thr (mmul RN p J Q) = vmR p (agg_imtlg RN P thr J) Q) /\
  (forall s ne c w_opt, agg_cagrad RN s ne c w_opt (mmul RN p J Q) =
      vmR p (agg_cagrad RN s ne c w_opt J) Q) /\
  (forall lam Vt tol pref, agg_aligned RN lam Vt tol pref (mmul RN p J Q) =
      res_map (fun v => vmR p v Q) (agg_aligned RN lam Vt tol pref J)) /\
  (forall e, agg_random RN e (mmul RN p J Q) = vmR p (agg_random RN e J) Q).
Proof.
  intros n p J Q Ho HJ Hne.
  pose proof (orthogonal_agg n p J Q Ho HJ Hne) as Hres.
  pose proof (orthogonal_agg_total n p J Q Ho HJ Hne) as Htot.
  repeat match goal with |- _ /\ _ => split end; intros.
  - exact (Htot _ _ gf_mean).
  - exact (Htot _ _ gf_sum).
  - exact (Hres _ _ (gf_constant w)).
  - exact (Hres _ _ (gf_upgrad qp pref s ne re)).
  - exact (Hres _ _ (gf_dualproj qp pref s ne re)).
  - exact (Htot _ _ (gf_mgda eps iters)).
  - exact (Htot _ _ (gf_pcgrad perms)).
  - exact (Hres _ _ (gf_krum f k)).
  - exact (Htot _ _ (gf_imtlg P thr)).
  - exact (Htot _ _ (gf_cagrad s ne c w_opt)).
  - exact (Hres _ _ (gf_aligned lam Vt tol pref)).
  - exact (Htot _ _ (gf_random e)).
Qed.
Print Assumptions C08_orthogonal_instances.

Theorem C08_span : forall J (r : res (list R)) v,
  weighted RN J r = Ok v -> exists w, v = combineR J w.
Proof. exact weighted_in_span. Qed.
Print Assumptions C08_span.

(* TrimmedMean is column-local: coordinate j is a function of column j alone, and an all-zero
   column yields 0 *)
Theorem C08_trimmed_mean_columns : forall b J, (2 * b + 1 <= length J)%nat ->
  agg_trimmed_mean RN b J = Ok (map (fun j => trimmed RN b (column RN J j)) (seq 0 (ncols J))) /\
  trimmed RN b (repeat 0 (length J)) = 0.
Proof.
  intros b J H. split.
  - unfold agg_trimmed_mean. destruct (Nat.ltb_spec (length J) (1 + 2 * b)); [lia|reflexivity].
  - apply trimmed_zero_column. exact H.
Qed.
Print Assumptions C08_trimmed_mean_columns.

(* ConFIG: A(J Q) = A(J) Q for every Q with orthonormal rows, with the pseudo-inverse
   oracle of the rotated unit rows Q^T B; the unit rows commute with Q and the contract U B = I
   transfers *)
From TJ.proofs Require Import QPProofs C03Proofs C18Proofs C16Proofs C11Proofs C10Proofs EquivarianceProofs ConfigProofs.
Theorem C08_config : forall n p m J Q B pref,
  orth n p Q -> wfmat n J -> wfmat m B -> length B = n ->
  let B' := config_pinv_Q p m Q B in
  length B' = p /\ wfmat m B' /\
  config_units RN (mmul RN p J Q) = mmul RN p (config_units RN J) Q /\
  ((forall x, length x = m -> mvR (config_units RN J) (mvR B x) = x) ->
   (forall x, length x = m -> mvR (config_units RN (mmul RN p J Q)) (mvR B' x) = x)) /\
  agg_config RN B' pref (mmul RN p J Q) = res_map (fun v => vmR p v Q) (agg_config RN B pref J).
Proof. exact config_orthogonal. Qed.
Print Assumptions C08_config.

(* GradDrop: column-local.  Coordinate j is a function of column j, the leak vector and
   the draw u_j alone, and an all-zero column yields 0 whatever the draw: permuting the columns
   together with their draws permutes the output, appended zero columns append zeros *)
Theorem C08_graddrop_columns : forall leak U J, length leak = length J ->
  agg_graddrop RN (Some leak) U J
  = Ok (map (fun '(j, u) => graddrop_coord RN leak (column RN J j) u)
            (List.combine (seq 0 (ncols J)) U)).
Proof. exact graddrop_column_local. Qed.
Print Assumptions C08_graddrop_columns.
Theorem C08_graddrop_zero_column : forall leak m u, length leak = m ->
  graddrop_coord RN leak (repeat 0 m) u = 0.
Proof. exact graddrop_zero_column. Qed.
Print Assumptions C08_graddrop_zero_column.
