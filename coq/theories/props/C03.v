(* C03 — UPGrad / DualProj return the exact (regularised) dual-cone projection.
   qp is the QP kernel (quadprog) as an oracle; its contract (is_min) is a hypothesis; the harness
   re-checks the exact KKT certificate (kktb) of every oracle answer it feeds to the model. *)
From Coq Require Import Reals List Bool Arith.
From TJ Require Import Num Linalg NumR Agg.
From TJ.proofs Require Import LinalgR QPProofs C03Proofs.
Import ListNotations.
Local Open Scope R_scope.

(* an exact KKT certificate proves minimality (M symmetric PSD) *)
Theorem C03_kkt_sound : forall m M u w, length M = m -> symm m M -> psd m M ->
  length w = m -> kktb RN M u w = true -> is_min m M u w.
Proof. exact kktb_sound. Qed.
Print Assumptions C03_kkt_sound.

(* the regularised normalised Gramian of any J is symmetric PSD, so the certificate applies *)
Theorem C03_M_symmetric_psd : forall n J s ne re, wfmat n J -> 0 < s -> nltb RN s ne = false ->
  0 <= re ->
  let M := reg_norm_gramian RN (gramR J) s ne re in
  length M = length J /\ symm (length J) M /\ psd (length J) M.
Proof.
  intros n J s ne re HJ Hs Hne Hre M. split; [apply length_M|].
  split; [eapply symm_M; eassumption | eapply psd_M; eassumption].
Qed.
Print Assumptions C03_M_symmetric_psd.

(* "the unique minimiser" *)
Theorem C03_min_unique : forall n J s ne re, wfmat n J -> 0 < s -> nltb RN s ne = false ->
  forall u w1 w2, 0 < re ->
  is_min (length J) (reg_norm_gramian RN (gramR J) s ne re) u w1 ->
  is_min (length J) (reg_norm_gramian RN (gramR J) s ne re) u w2 -> w1 = w2.
Proof. exact min_unique. Qed.
Print Assumptions C03_min_unique.

(* DualProj(pref)(J) = w . J with w THE minimiser of v^T (G/s^2 + reg_eps I) v, v >= u *)
Theorem C03_dualproj : forall n J s ne re pref qp,
  wfmat n J -> 0 < s -> nltb RN s ne = false -> 0 < re -> pref_ok pref (length J) ->
  let m := length J in let u := pref_u pref m in
  let M := reg_norm_gramian RN (gramR J) s ne re in
  is_min m M u (qp M u) ->
  agg_dualproj RN qp pref s ne re J = Ok (combineR J (qp M u)) /\
  (forall w', is_min m M u w' -> w' = qp M u).
Proof. intros. apply (dualproj_spec n); assumption. Qed.
Print Assumptions C03_dualproj.

(* UPGrad(pref)(J) = (sum_i w_i) . J with w_i THE minimiser for u_i e_i *)
Theorem C03_upgrad : forall n J s ne re pref qp,
  wfmat n J -> 0 < s -> nltb RN s ne = false -> 0 < re -> pref_ok pref (length J) ->
  let m := length J in let u := pref_u pref m in
  let M := reg_norm_gramian RN (gramR J) s ne re in
  let ui := fun i => onehotR m i (vget RN u i) in
  (forall i, (i < m)%nat -> is_min m M (ui i) (qp M (ui i))) ->
  agg_upgrad RN qp pref s ne re J =
    Ok (combineR J (vsum_rows RN m (map (fun i => qp M (ui i)) (seq 0 m)))) /\
  (forall i w', (i < m)%nat -> is_min m M (ui i) w' -> w' = qp M (ui i)).
Proof. intros. apply (upgrad_spec n); assumption. Qed.
Print Assumptions C03_upgrad.

(* no two rows with a negative inner product, u >= 0  ==>  exactly u . J *)
Theorem C03_no_conflict_dualproj : forall n J s ne re pref qp,
  wfmat n J -> 0 < s -> nltb RN s ne = false -> 0 < re -> pref_ok pref (length J) ->
  (forall r r', In r J -> In r' J -> 0 <= dotR r r') ->
  let m := length J in let u := pref_u pref m in
  let M := reg_norm_gramian RN (gramR J) s ne re in
  nonneg u -> is_min m M u (qp M u) ->
  agg_dualproj RN qp pref s ne re J = Ok (combineR J u).
Proof. intros. apply (dualproj_no_conflict n); assumption. Qed.
Print Assumptions C03_no_conflict_dualproj.

Theorem C03_no_conflict_upgrad : forall n J s ne re pref qp,
  wfmat n J -> 0 < s -> nltb RN s ne = false -> 0 < re -> pref_ok pref (length J) ->
  (forall r r', In r J -> In r' J -> 0 <= dotR r r') ->
  let m := length J in let u := pref_u pref m in
  let M := reg_norm_gramian RN (gramR J) s ne re in
  let ui := fun i => onehotR m i (vget RN u i) in
  nonneg u -> (forall i, (i < m)%nat -> is_min m M (ui i) (qp M (ui i))) ->
  agg_upgrad RN qp pref s ne re J = Ok (combineR J u).
Proof. intros. apply (upgrad_no_conflict n); assumption. Qed.
Print Assumptions C03_no_conflict_upgrad.

(* s < norm_eps  ==>  u . J as well *)
Theorem C03_below_norm_eps : forall J s ne re pref qp,
  nltb RN s ne = true -> 0 < re -> pref_ok pref (length J) ->
  let m := length J in let u := pref_u pref m in
  let M := reg_norm_gramian RN (gramR J) s ne re in
  nonneg u -> is_min m M u (qp M u) ->
  agg_dualproj RN qp pref s ne re J = Ok (combineR J u).
Proof. exact dualproj_below_norm_eps. Qed.
Print Assumptions C03_below_norm_eps.

(* a preference vector of the wrong length is rejected *)
Theorem C03_bad_pref_rejected : forall J s ne re p qp, length p <> length J ->
  agg_dualproj RN qp (Some p) s ne re J = Err ValueError /\
  agg_upgrad RN qp (Some p) s ne re J = Err ValueError.
Proof.
  intros. unfold agg_dualproj, agg_upgrad. rewrite pref_weights_bad by assumption. split; reflexivity.
Qed.
Print Assumptions C03_bad_pref_rejected.

(* the explanatory clause: without regularisation the QP answer IS the projection of
   u.J onto the dual cone {y | J y >= 0} (variational and closest-point forms), derived from
   is_min alone *)
From TJ.proofs Require Import C18Proofs MgdaProofs PublishedProofs.
Theorem C03_is_dual_cone_projection : forall n J u w, wfmat n J -> is_min (length J) (gramR J) u w ->
  let x := vmR n w J in
  let p := vmR n u J in
  dual_cone J x /\
  (forall y, length y = n -> dual_cone J y -> 0 <= dotR (vsubR x p) (vsubR y x)) /\
  (forall y, length y = n -> dual_cone J y ->
     dotR (vsubR x p) (vsubR x p) <= dotR (vsubR y p) (vsubR y p)).
Proof. exact dual_cone_projection. Qed.
Print Assumptions C03_is_dual_cone_projection.
Theorem C03_dualproj_unregularised : forall n J s ne pref qp,
  wfmat n J -> J <> [] -> 0 < s -> nltb RN s ne = false -> pref_ok pref (length J) ->
  let m := length J in
  let u := pref_u pref m in
  let M := reg_norm_gramian RN (gramR J) s ne 0 in
  is_min m M u (qp M u) ->
  let x := vmR n (qp M u) J in
  let p := vmR n u J in
  agg_dualproj RN qp pref s ne 0 J = Ok x /\
  dual_cone J x /\
  (forall y, length y = n -> dual_cone J y -> 0 <= dotR (vsubR x p) (vsubR y x)) /\
  (forall y, length y = n -> dual_cone J y ->
     dotR (vsubR x p) (vsubR x p) <= dotR (vsubR y p) (vsubR y p)).
Proof. exact dualproj_unregularised_projection. Qed.
Print Assumptions C03_dualproj_unregularised.

(* instance gap: the exact KKT certificate checked at QN by the correspondence IS the
   certificate of the real-number theorem, and the executed UPGrad/DualProj models map to the real ones
   for related QP oracles (Q2R preserves 0,1,+,-,*,/,<=,< and the embedding of naturals) *)
From Coq Require Import QArith Qreals.
From TJ Require Import NumQ.
From TJ.proofs Require Import TransferProofs TransferAggProofs.
Theorem C03_kkt_certificate_transfers : forall G u w,
  kktb RN (map (map Q2R) G) (map Q2R u) (map Q2R w) = kktb QN G u w.
Proof. exact kktb_Q_to_R. Qed.
Print Assumptions C03_kkt_certificate_transfers.
Theorem C03_executed_upgrad_is_the_real_model : forall qpQ qpR,
  (forall G u, qpR (map (map Q2R) G) (map Q2R u) = map Q2R (qpQ G u)) ->
  forall pref s norm_eps reg_eps J,
  agg_upgrad RN qpR (option_map (map Q2R) pref) (Q2R s) (Q2R norm_eps) (Q2R reg_eps) (map (map Q2R) J)
  = match agg_upgrad QN qpQ pref s norm_eps reg_eps J with Ok v => Ok (map Q2R v) | Err e => Err e end.
Proof. exact agg_upgrad_Q_to_R. Qed.
Print Assumptions C03_executed_upgrad_is_the_real_model.
Theorem C03_executed_dualproj_is_the_real_model : forall qpQ qpR,
  (forall G u, qpR (map (map Q2R) G) (map Q2R u) = map Q2R (qpQ G u)) ->
  forall pref s norm_eps reg_eps J,
  agg_dualproj RN qpR (option_map (map Q2R) pref) (Q2R s) (Q2R norm_eps) (Q2R reg_eps) (map (map Q2R) J)
  = match agg_dualproj QN qpQ pref s norm_eps reg_eps J with Ok v => Ok (map Q2R v) | Err e => Err e end.
Proof. exact agg_dualproj_Q_to_R. Qed.
Print Assumptions C03_executed_dualproj_is_the_real_model.

(* the premise `nltb RN s ne = false` of the theorems above is exactly "s >= norm_eps", EQUALITY INCLUDED:
   a matrix whose largest singular value equals norm_eps is projected, not averaged (the harness runs the
   implementation on matrices whose sigma_max is returned exactly by the SVD, aggrun.exact_boundary) *)
Theorem C03_threshold_is_inclusive : forall s ne : R,
  (nltb RN s ne = false <-> (ne <= s)%R) /\ nltb RN s s = false.
Proof.
  intros s ne. split.
  - exact (Rltb_false s ne).
  - apply (proj2 (Rltb_false s s)). apply Rle_refl.
Qed.
Print Assumptions C03_threshold_is_inclusive.
Theorem C03_dualproj_at_the_threshold : forall n J s re pref qp,
  wfmat n J -> (0 < s)%R -> (0 < re)%R -> pref_ok pref (length J) ->
  let m := length J in let u := pref_u pref m in
  let M := reg_norm_gramian RN (gramR J) s s re in
  is_min m M u (qp M u) ->
  agg_dualproj RN qp pref s s re J = Ok (combineR J (qp M u)).
Proof.
  intros n J s re pref qp HJ Hs Hre Hp m u M Hq.
  apply (C03_dualproj n J s s re pref qp); try assumption.
  apply (proj2 (Rltb_false s s)). apply Rle_refl.
Qed.
Print Assumptions C03_dualproj_at_the_threshold.

(* THE minimiser named in the statement exists: an l1-Lipschitz function attains its minimum on a box
   (induction on the dimension with one-dimensional compactness only, no choice axiom); the regularised form is coercive,
   so its feasible sublevel set lies in a box.  With C03_min_unique: exactly one minimiser, on BOTH sides of the norm_eps
   branch.  The QP oracle's contract `is_min ... (qp M u)` of the theorems above is therefore satisfiable for every input *)
From TJ.proofs Require Import QPMinExists.
Theorem C03_minimiser_exists_and_is_unique : forall n J s ne re u, wfmat n J ->
  (nltb RN s ne = false -> (0 < s)%R) -> (0 < re)%R -> length u = length J ->
  exists w, is_min (length J) (reg_norm_gramian RN (gramR J) s ne re) u w /\
    forall w', is_min (length J) (reg_norm_gramian RN (gramR J) s ne re) u w' -> w' = w.
Proof. exact qp_min_exists_unique. Qed.
Print Assumptions C03_minimiser_exists_and_is_unique.
Theorem C03_lipschitz_functions_attain_their_minimum_on_boxes : forall m (lo hi : list R) (f : list R -> R) (L : R),
  length lo = m -> length hi = m -> Forall2 Rle lo hi -> (0 <= L)%R ->
  (forall v v', inbox lo hi v -> inbox lo hi v' -> (f v - f v' <= L * l1 (vsubR v v'))%R) ->
  exists w, inbox lo hi w /\ forall v, inbox lo hi v -> (f w <= f v)%R.
Proof. intros m lo hi f L _ _. exact (box_min_exists lo hi f L). Qed.
Print Assumptions C03_lipschitz_functions_attain_their_minimum_on_boxes.
