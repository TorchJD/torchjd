(* C02 — mtl_backward(): own-task gradients for heads, aggregated Jacobian for the trunk.
   Obligations only.  Instance: real numbers; every program, any number/shape of features, any
   number of tasks, parameters per task and sharing between tasks, every chunk size. *)
From Coq Require Import Reals List Bool Arith.
From TJ Require Import Num Linalg NumR Chunk Autojac.
From TJ.proofs Require Import LinalgR AutojacBasics AutojacSpec C01Proofs C02Proofs.
Import ListNotations.

(* an accepted call adds
   - to every shared parameter its own slice of A(M), where row i of M is the gradient of
     losses[i] w.r.t. the shared parameters back-propagated through `features` (mtl_matrix:
     row i is built from losses[i]);
   - to every task-specific parameter, for each task listing it (in order), the gradient of that
     task's loss w.r.t. it (task_updates);
   and changes no other .grad *)
Theorem C02_deposit : forall (P : prog R) (A : list (list R) -> res (list R))
    losses features tasks shared k retain s d' s',
  wf_prog P -> shared <> [] ->
  mtl_backward_model RN P A losses features tasks shared k retain s = (Ok d', s') ->
  exists v, A (mtl_matrix P features shared losses) = Ok v /\ length v = total P shared /\
    (forall p, In p shared ->
       grad_val s' p = Some (acc_val (grad_val s p) (plain (p_shape P p) (slice_of P shared v p)))) /\
    (forall q, In q (concat tasks) -> grad_val s' q = task_updates P tasks losses q (grad_val s q)) /\
    (forall t, ~ In t (shared ++ concat tasks) -> sget s' t = sget s t).
Proof. exact mtl_deposit. Qed.
Print Assumptions C02_deposit.

Theorem C02_no_shared : forall (P : prog R) A losses features tasks k retain s d' s',
  wf_prog P ->
  mtl_backward_model RN P A losses features tasks [] k retain s = (Ok d', s') ->
  (forall q, In q (concat tasks) -> grad_val s' q = task_updates P tasks losses q (grad_val s q)) /\
  (forall t, ~ In t (concat tasks) -> sget s' t = sget s t).
Proof. exact mtl_no_shared. Qed.
Print Assumptions C02_no_shared.

(* row i always belongs to losses[i]: the matrix is the map of the per-loss row over `losses` *)
Theorem C02_rows_follow_losses : forall (P : prog R) features shared losses i,
  nth i (mtl_matrix P features shared losses) [] =
  match nth_error losses i with Some l => mtl_row P features shared l | None => [] end.
Proof.
  intros P features shared losses. unfold mtl_matrix.
  induction losses as [|l losses IH]; intros [|i]; cbn; try reflexivity. apply IH.
Qed.
Print Assumptions C02_rows_follow_losses.

(* TOTALITY: all argument checks pass + every engine run the call issues (one per task, then the
   trunk) succeeds in the state in which it is issued + the aggregator accepts the matrix
   ==> the call is accepted *)
From TJ.proofs Require Import EntrySpec C13Proofs AcceptProofs.
Theorem C02_accepts : forall (P : prog R) (A : list (list R) -> res (list R))
    losses features tasks shared k retain s v,
  wf_prog P -> shared <> [] ->
  mtl_args_ok P losses features tasks shared k retain = true ->
  mtl_engine_ok_at P retain s losses features tasks shared ->
  A (mtl_matrix P features shared losses) = Ok v -> length v = total P shared ->
  exists d' s', mtl_backward_model RN P A losses features tasks shared k retain s = (Ok d', s').
Proof. exact mtl_accepts_at. Qed.
Print Assumptions C02_accepts.

(* non-vacuity (executable instance): two tasks over one feature f = 2x; losses p*f and 3f;
   Constant(1,10): x.grad = 1*2p + 10*6 = 2*5+60, p.grad = f = 2*4 *)
From Coq Require Import QArith.
From TJ Require Import NumQ Agg AutojacShow Traverse.
Example C02_accepted_call :
  let P := mk_prog [[]; []; []; []; []]
     [(3%nat, 1%nat, [[8#1]]); (3%nat, 2%nat, [[5#1]]); (4%nat, 2%nat, [[3#1]]); (2%nat, 0%nat, [[2#1]])]
     [(3%nat, 1%nat); (3%nat, 2%nat); (4%nat, 2%nat); (2%nat, 0%nat)]
     [true; true; true; true; true] [true; true; false; false; false]
     [] [] [] [] [] in
  show_grads (snd (mtl_backward_model QN P (agg_constant QN [1#1; 10#1]) [3%nat; 4%nat] [2%nat]
                     [[1%nat]; []] [0%nat] None false (mk_store [] [] 0%nat))) [0%nat; 1%nat]
  = [Some (1%nat, ([], [(70%Z, 1%Z)])); Some (0%nat, ([], [(8%Z, 1%Z)]))].
Proof. vm_compute. reflexivity. Qed.

(* the executed (QN) model of mtl_backward, mapped to R, is the real model the theorems speak about *)
From TJ.proofs Require Import TransferProofs.
Theorem C02_executed_model_is_the_real_model : forall (P : prog Q) A A', agg_hom Q2R A A' ->
  forall losses features tasks shared k retain s,
  mtl_backward_model RN (mprog Q2R P) A' losses features tasks shared k retain (mstore Q2R s)
  = (mres Q2R (fst (mtl_backward_model QN P A losses features tasks shared k retain s)),
     mstore Q2R (snd (mtl_backward_model QN P A losses features tasks shared k retain s))).
Proof. exact mtl_Q_to_R. Qed.
Print Assumptions C02_executed_model_is_the_real_model.

(* ---- END TO END: when the features form a cut between the losses and the shared parameters
   (D loss p = sum_f D loss f * D f p), the matrix handed to the aggregator IS the true Jacobian of the
   losses w.r.t. the shared parameters, and mtl_backward updates the shared parameters exactly as
   backward(losses, A, inputs = shared) would, for ANY aggregator ---- *)
From TJ.proofs Require Import C05Proofs C15Proofs EndToEndProofs.
Theorem C02_matrix_is_jacobian : forall (P : prog R) features shared losses,
  wf_prog P ->
  (forall l, In l losses -> pnumel P l = 1%nat) ->
  (forall l p, In l losses -> In p shared -> is_cut P [l] features p) ->
  mtl_matrix P features shared losses = jacobian P losses shared.
Proof. exact mtl_matrix_is_jacobian. Qed.
Print Assumptions C02_matrix_is_jacobian.
Theorem C02_equals_backward_on_shared : forall (P : prog R) A losses features tasks shared k retain s d' s' kb retainb db sb',
  wf_prog P -> shared <> [] ->
  (forall l p, In l losses -> In p shared -> is_cut P [l] features p) ->
  mtl_backward_model RN P A losses features tasks shared k retain s = (Ok d', s') ->
  backward_model RN P A losses shared kb retainb s = (Ok db, sb') ->
  forall p, In p shared -> grad_val s' p = grad_val sb' p.
Proof. exact mtl_equals_backward_on_shared_same_store. Qed.
Print Assumptions C02_equals_backward_on_shared.
