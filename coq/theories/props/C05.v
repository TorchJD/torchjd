(* C05 — with linear aggregators, Jacobian descent coincides with PyTorch autograd.
   Obligations only.  Instance: real numbers.  The reference is the model's specification of
   torch.autograd (ag_value: the vector-Jacobian product w.r.t. the total derivative, None when
   unreachable); `materialize` reads None as zeros, which is the one observable difference
   (torchjd deposits zeros into an explicitly requested unreachable input, torch leaves it). *)
From Coq Require Import Reals List Bool Arith Permutation.
From TJ Require Import Num Linalg NumR Chunk Agg Autojac.
From TJ.proofs Require Import LinalgR AutojacBasics AutojacSpec C01Proofs C05Proofs.
Import ListNotations.
Local Open Scope R_scope.

(* the slice of w.J that belongs to input i is the VJP with w as cotangents, split per tensor *)
Theorem C05_weighted_slice : forall (P : prog R) tensors ord w i,
  wf_prog P -> NoDup ord -> In i ord -> (1 <= total P tensors)%nat ->
  length w = total P tensors ->
  slice_of P ord (combine_rows RN (jacobian P tensors ord) w) i
  = vjp RN P tensors (split_by (map (pnumel P) tensors) w) i.
Proof. exact weighted_slice. Qed.
Print Assumptions C05_weighted_slice.

(* backward(tensors, Constant(w)) adds to every input what torch.autograd.backward(tensors,
   grad_tensors = w split per tensor) would: for all weights (negative and zero included), chunk
   sizes, input subsets *)
Theorem C05_constant : forall (P : prog R) w tensors ord k retain s d' s',
  wf_prog P -> ord <> [] -> (1 <= total P tensors)%nat ->
  backward_model RN P (agg_constant RN w) tensors ord k retain s = (Ok d', s') ->
  length w = total P tensors /\
  forall i, In i ord ->
    grad_val s' i = Some (acc_val (grad_val s i)
      (plain (p_shape P i)
         (materialize RN P i (ag_value RN P tensors (split_by (map (pnumel P) tensors) w) i)))).
Proof. exact constant_deposit. Qed.
Print Assumptions C05_constant.

(* Sum(): the gradient of the sum of all output scalars *)
Theorem C05_sum : forall (P : prog R) tensors ord k retain s d' s',
  wf_prog P -> ord <> [] -> (1 <= total P tensors)%nat ->
  backward_model RN P (fun J => Ok (agg_sum RN J)) tensors ord k retain s = (Ok d', s') ->
  forall i, In i ord ->
    grad_val s' i = Some (acc_val (grad_val s i)
      (plain (p_shape P i)
         (materialize RN P i (ag_value RN P tensors
            (split_by (map (pnumel P) tensors) (repeat 1 (total P tensors))) i)))).
Proof. exact sum_deposit. Qed.
Print Assumptions C05_sum.

(* Mean(): the gradient of their mean *)
Theorem C05_mean : forall (P : prog R) tensors ord k retain s d' s',
  wf_prog P -> ord <> [] -> (1 <= total P tensors)%nat ->
  backward_model RN P (fun J => Ok (agg_mean RN J)) tensors ord k retain s = (Ok d', s') ->
  forall i, In i ord ->
    grad_val s' i = Some (acc_val (grad_val s i)
      (plain (p_shape P i)
         (materialize RN P i (ag_value RN P tensors
            (split_by (map (pnumel P) tensors)
                      (repeat (1 / INR (total P tensors)) (total P tensors))) i)))).
Proof. exact mean_deposit. Qed.
Print Assumptions C05_mean.

(* the shared parameters in mtl_backward with fixed weights: the weighted sum of the per-task
   gradients pulled back through the features *)
Theorem C05_mtl_shared : forall (P : prog R) features shared losses w p,
  wf_prog P -> NoDup shared -> In p shared -> losses <> [] -> length w = length losses ->
  (forall l f, In l losses -> In f features -> length (grad_of P l f) = pnumel P f) ->
  slice_of P shared (combine_rows RN (mtl_matrix P features shared losses) w) p
  = fold_right (fun wl acc =>
                  vaddR (vscaleR (fst wl) (vjp RN P features (map (grad_of P (snd wl)) features) p)) acc)
               (vzeroR (pnumel P p)) (combine w losses).
Proof. exact mtl_weighted_slice. Qed.
Print Assumptions C05_mtl_shared.

(* (shared with C01) the enumeration order of the inputs is irrelevant for every weighting that is a
   function of the Gramian — which does not depend on the order *)
Theorem C05_gram_order_free : forall (P : prog R) outs ord1 ord2,
  wf_prog P -> Permutation ord1 ord2 ->
  gram RN (jacobian P outs ord1) = gram RN (jacobian P outs ord2).
Proof. exact gram_jacobian_perm. Qed.
Print Assumptions C05_gram_order_free.
Theorem C05_input_order_irrelevant : forall (P : prog R) (omega : list (list R) -> list R) tensors ord1 ord2 i,
  wf_prog P -> NoDup ord1 -> Permutation ord1 ord2 -> In i ord1 -> (1 <= total P tensors)%nat ->
  length (omega (gram RN (jacobian P tensors ord1))) = total P tensors ->
  slice_of P ord1 (combine_rows RN (jacobian P tensors ord1) (omega (gram RN (jacobian P tensors ord1)))) i
  = slice_of P ord2 (combine_rows RN (jacobian P tensors ord2) (omega (gram RN (jacobian P tensors ord2)))) i.
Proof. exact weighted_order_irrelevant. Qed.
Print Assumptions C05_input_order_irrelevant.

(* ---- mtl_backward's shared parameters with Constant(w): under the cut hypothesis they
   receive what torch.autograd.backward(losses, grad_tensors = w) computes ---- *)
From TJ.proofs Require Import EntrySpec C20Proofs C02Proofs C15Proofs EndToEndProofs.
Theorem C05_mtl_constant : forall (P : prog R) w losses features tasks shared k retain s d' s',
  wf_prog P -> shared <> [] ->
  (forall l p, In l losses -> In p shared -> is_cut P [l] features p) ->
  mtl_backward_model RN P (agg_constant RN w) losses features tasks shared k retain s = (Ok d', s') ->
  length w = total P losses /\
  forall p, In p shared ->
    grad_val s' p = Some (acc_val (grad_val s p)
      (plain (p_shape P p)
         (materialize RN P p (ag_value RN P losses (split_by (map (pnumel P) losses) w) p)))).
Proof. exact mtl_constant_deposit. Qed.
Print Assumptions C05_mtl_constant.
