(* C04 — non-conflicting aggregators never oppose any objective. *)
From Coq Require Import Reals List Bool Arith.
From TJ Require Import Num Linalg NumR Agg.
From TJ.proofs Require Import LinalgR QPProofs C03Proofs.
Import ListNotations.
Local Open Scope R_scope.

(* at a minimiser of v^T M v over v >= u, (M w)_i >= 0 for every i (the hypotheses i < m and
   M_ii > 0 are not needed: QPProofs.min_grad_nonneg) *)
Theorem C04_qp_sign : forall m M u w i, length M = m -> symm m M -> is_min m M u w ->
  (i < m)%nat -> 0 < qf M (onehotR m i 1) -> 0 <= nth i (mvR M w) 0.
Proof. exact min_sign. Qed.
Print Assumptions C04_qp_sign.

(* DualProj: (J . A(J))_i >= - reg_eps * s^2 * w_i  for every row i *)
Theorem C04_dualproj : forall n J s ne re pref qp,
  wfmat n J -> 0 < s -> nltb RN s ne = false -> 0 < re -> pref_ok pref (length J) ->
  let m := length J in let u := pref_u pref m in
  let M := reg_norm_gramian RN (gramR J) s ne re in
  is_min m M u (qp M u) ->
  agg_dualproj RN qp pref s ne re J = Ok (combineR J (qp M u)) /\
  forall i, (i < m)%nat ->
    - re * (s * s) * nth i (qp M u) 0 <= nth i (mvR J (combineR J (qp M u))) 0.
Proof.
  intros n J s ne re pref qp HJ Hs Hne Hre Hp m u M Hq. split.
  - apply (dualproj_spec n); assumption.
  - intros i Hi. apply (dualproj_nonconflicting n); assumption.
Qed.
Print Assumptions C04_dualproj.

(* UPGrad: same allowance with w the summed weights *)
Theorem C04_upgrad : forall n J s ne re pref qp,
  wfmat n J -> 0 < s -> nltb RN s ne = false -> 0 < re -> pref_ok pref (length J) ->
  let m := length J in let u := pref_u pref m in
  let M := reg_norm_gramian RN (gramR J) s ne re in
  let ui := fun i => onehotR m i (vget RN u i) in
  (forall i, (i < m)%nat -> is_min m M (ui i) (qp M (ui i))) ->
  let w := vsum_rows RN m (map (fun i => qp M (ui i)) (seq 0 m)) in
  agg_upgrad RN qp pref s ne re J = Ok (combineR J w) /\
  forall i, (i < m)%nat -> - re * (s * s) * nth i w 0 <= nth i (mvR J (combineR J w)) 0.
Proof.
  intros n J s ne re pref qp HJ Hs Hne Hre Hp m u M ui Hq w. split.
  - apply (upgrad_spec n); assumption.
  - intros i Hi. apply (upgrad_nonconflicting n); assumption.
Qed.
Print Assumptions C04_upgrad.

(* MGDA: the allowance of the statement, for EVERY iteration budget and epsilon *)
From TJ.proofs Require Import C18Proofs MgdaProofs.
(* x = MGDA's output, xstar a minimum-norm point of the convex hull of the rows, s any bound on the
   row norms (sigma_max in particular): every objective satisfies
   (J.A(J))_i >= - s * sqrt(|A(J)|^2 - |xstar|^2), the sub-optimality after the iterations done *)
Theorem C04_mgda_allowance : forall n J eps iters wstar s i, wfmat n J -> hull_min n J wstar ->
  0 <= s -> (forall g, In g J -> dotR g g <= s * s) -> (i < length J)%nat ->
  let x := agg_mgda RN eps iters J in
  let xstar := vmR n wstar J in
  - s * sqrt (dotR x x - dotR xstar xstar) <= nth i (mvR J x) 0.
Proof. exact mgda_allowance_mv. Qed.
Print Assumptions C04_mgda_allowance.
(* the exact minimum-norm point opposes no objective at all *)
Theorem C04_min_norm_point_nonconflicting : forall n J wstar i, wfmat n J -> hull_min n J wstar ->
  (i < length J)%nat ->
  dotR (vmR n wstar J) (vmR n wstar J) <= dotR (nth i J []) (vmR n wstar J).
Proof. exact hull_min_nonconflicting. Qed.
Print Assumptions C04_min_norm_point_nonconflicting.

(* CAGrad with c >= 1: from optimality of the conic program's answer (the solver
   contract; first-order conditions are DERIVED from it), no objective is opposed *)
From TJ.proofs Require Import PublishedProofs.
Theorem C04_cagrad : forall n J s ne c w_opt,
  wfmat n J -> J <> [] -> 0 < s -> nltb RN s ne = false -> 0 < ne -> 1 <= c ->
  let Gn := normalized_gramian RN (gramR J) s ne in
  nleb RN ne (sqrt (quadform RN Gn w_opt)) = true ->
  cagrad_opt Gn c w_opt ->
  forall i, (i < length J)%nat -> 0 <= nth i (mvR J (agg_cagrad RN s ne c w_opt J)) 0.
Proof. exact cagrad_c_ge_1_nonconflicting_opt. Qed.
Print Assumptions C04_cagrad.
Theorem C04_cagrad_below_threshold : forall n J s ne c w_opt, wfmat n J -> J <> [] ->
  nleb RN ne (sqrt (quadform RN (normalized_gramian RN (gramR J) s ne) w_opt)) = false ->
  forall i, nth i (mvR J (agg_cagrad RN s ne c w_opt J)) 0 = 0.
Proof. exact cagrad_below_threshold_nonconflicting. Qed.
Print Assumptions C04_cagrad_below_threshold.
(* MGDA on two rows: exactly non-conflicting after one step *)
Theorem C04_mgda_two_rows : forall n g1 g2 eps iters, length g1 = n -> length g2 = n ->
  (1 <= iters)%nat ->
  let x := agg_mgda RN eps iters [g1; g2] in
  0 <= dotR g1 x /\ 0 <= dotR g2 x.
Proof. exact mgda_two_rows_nonconflicting. Qed.
Print Assumptions C04_mgda_two_rows.

(* MGDA's sub-optimality bound: with epsilon = 0 the K Frank-Wolfe iterations with exact
   line search started at the mean leave |A(J)|^2 - min-norm^2 <= 8 s^2 / (K + 2), s any upper
   bound of the largest singular value (|J^T v| <= s |v|); with C04_mgda_allowance this closes the
   statement's "whose sub-optimality itself is at most 8 s^2 / (max_iters + 2)" for EVERY K *)
From TJ.proofs Require Import MgdaRateProofs.
Theorem C04_mgda_rate : forall n J K wstar s, wfmat n J -> hull_min n J wstar -> 0 <= s ->
  (forall v, length v = length J -> dotR (vmR n v J) (vmR n v J) <= s * s * dotR v v) ->
  let x := agg_mgda RN 0 K J in
  let xstar := vmR n wstar J in
  dotR x x - dotR xstar xstar <= 8 * (s * s) / (INR K + 2).
Proof. exact mgda_fw_rate. Qed.
Print Assumptions C04_mgda_rate.

(* the minimum-norm point of the hull EXISTS: induction on the number of rows with one-dimensional
   compactness only (the inner minimum value is a Lipschitz function of the mixing parameter), no choice axiom.
   With it the hypothesis `hull_min n J wstar` of the MGDA theorems above is discharged *)
From TJ.proofs Require Import HullMinExists.
Theorem C04_min_norm_point_exists : forall n J, wfmat n J -> J <> [] -> exists wstar, hull_min n J wstar.
Proof. exact hull_min_exists. Qed.
Print Assumptions C04_min_norm_point_exists.
Theorem C04_mgda_rate_unconditional : forall n J K s, wfmat n J -> J <> [] -> 0 <= s ->
  (forall v, length v = length J -> dotR (vmR n v J) (vmR n v J) <= s * s * dotR v v) ->
  exists wstar, hull_min n J wstar /\
    let x := agg_mgda RN 0 K J in
    let xstar := vmR n wstar J in
    dotR x x - dotR xstar xstar <= 8 * (s * s) / (INR K + 2).
Proof. exact mgda_fw_rate_unconditional. Qed.
Print Assumptions C04_mgda_rate_unconditional.
Theorem C04_mgda_allowance_unconditional : forall n J eps iters s, wfmat n J -> J <> [] ->
  0 <= s -> (forall g, In g J -> dotR g g <= s * s) ->
  exists wstar, hull_min n J wstar /\
    forall i, (i < length J)%nat ->
    let x := agg_mgda RN eps iters J in
    let xstar := vmR n wstar J in
    - s * sqrt (dotR x x - dotR xstar xstar) <= dotR (nth i J []) x.
Proof. exact mgda_allowance_unconditional. Qed.
Print Assumptions C04_mgda_allowance_unconditional.

(* CAGrad: the conic program HAS an optimum (an l1-Lipschitz function attains its minimum on the simplex;
   same one-dimensional compactness argument, no choice axiom), and for c >= 1 every optimum gives an update that opposes
   no objective, whether or not it passes the norm_eps test (below it the update is the zero vector) *)
From TJ.proofs Require Import SimplexMinExists.
Theorem C04_cagrad_program_has_an_optimum : forall n J s ne c, wfmat n J -> J <> [] -> 0 < s ->
  nltb RN s ne = false -> 0 <= c ->
  exists w_opt, cagrad_opt (normalized_gramian RN (gramR J) s ne) c w_opt.
Proof. exact cagrad_opt_exists. Qed.
Print Assumptions C04_cagrad_program_has_an_optimum.
Theorem C04_cagrad_unconditional : forall n J s ne c,
  wfmat n J -> J <> [] -> 0 < s -> nltb RN s ne = false -> 0 < ne -> 1 <= c ->
  let Gn := normalized_gramian RN (gramR J) s ne in
  exists w_opt, cagrad_opt Gn c w_opt /\
    forall w, cagrad_opt Gn c w ->
      forall i, (i < length J)%nat -> 0 <= nth i (mvR J (agg_cagrad RN s ne c w J)) 0.
Proof. exact cagrad_c_ge_1_exists_nonconflicting_all. Qed.
Print Assumptions C04_cagrad_unconditional.
