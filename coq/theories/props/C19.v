(* C19 — NashMTL's state: reset() means fresh, weights are reused as scheduled. *)
From Coq Require Import Reals List Bool Arith.
From TJ Require Import Num Linalg NumR Nash.
From TJ.proofs Require Import LinalgR NashProofs.
Import ListNotations.

(* for every number type, every update_weights_every k, every solver (an arbitrary function of the
   problem object, the normalised Gramian and the previous weights, returning new weights and a
   new problem object: warm starts included), every history h and every suffix t:
   the outputs on t after (h ; reset) are those of a newly constructed aggregator on t *)
Theorem C19_reset_is_fresh : forall (T : Type) (N : Num T) k max_norm n_tasks
  (PS : Type) (fresh : list T -> PS) (solve : PS -> list (list T) -> list T -> list T * PS)
  (normG : list (list T) -> list (list T)) st0 h t ps,
  fst (run N k max_norm n_tasks PS fresh solve normG st0 (h ++ Reset :: t)) =
  fst (run N k max_norm n_tasks PS fresh solve normG st0 h) ++
  fst (run N k max_norm n_tasks PS fresh solve normG (mkFull (init_core N n_tasks) ps) t).
Proof. exact @reset_is_fresh. Qed.
Print Assumptions C19_reset_is_fresh.

(* the model's per-call trace IS the position-based schedule: call number s since the last reset
   invokes the solver iff s mod k = 0 and uses its answer, otherwise reuses the previous weights *)
Theorem C19_schedule : forall (T : Type) (N : Num T) k max_norm calls c,
  trace N k max_norm c calls = sched k (step c) (prvs c) calls.
Proof. intros. apply trace_is_sched. Qed.
Print Assumptions C19_schedule.

Theorem C19_recomputed_on_multiples_of_k : forall (T : Type) k (calls : list (list (list T) * list T)) s p i,
  i < length calls -> snd (nth i (sched k s p calls) ([], false)) = ((s + i) mod k =? 0).
Proof. intros. apply sched_flags. assumption. Qed.
Print Assumptions C19_recomputed_on_multiples_of_k.

(* whenever max_norm > 0 the returned vector has norm at most max_norm *)
Theorem C19_max_norm : forall n max_norm alpha J, wfmat n J -> J <> [] -> (0 < max_norm)%R ->
  (vnorm RN (combineR J (rescale RN max_norm alpha J)) <= max_norm)%R.
Proof. exact rescale_bound. Qed.
Print Assumptions C19_max_norm.

(* regression witness for defect D2: the reuse branch of step_core_v0 raises TypeError *)
Theorem C19_v0_refuted : forall (T : Type) (N : Num T) k max_norm c J ans,
  step c mod k <> 0 -> nltb N (n0 N) max_norm = true ->
  fst (fst (step_core_v0 N k max_norm c J ans)) = Err TypeError.
Proof. intros. apply v0_reuse_branch_fails; assumption. Qed.
Print Assumptions C19_v0_refuted.
