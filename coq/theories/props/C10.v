(* C10 — the order of the objectives does not matter: meta-theorem, Mean, Sum, any fixed weights
   permuted alongside (Constant), TrimmedMean; then the weightings computed from the Gramian, each
   under the contract of its numerical kernel (QP oracle answers are minimisers, no exact ties,
   Penrose inverse / solver answer / eigenvectors permuted alongside); GradDrop under a fixed draw. *)
From Coq Require Import Reals List Bool Arith Permutation.
From TJ Require Import Num Linalg NumR Agg.
From TJ.proofs Require Import LinalgR C10Proofs.
Import ListNotations.
Local Open Scope R_scope.

(* permuting the rows TOGETHER WITH their weights leaves the combination unchanged: any weighting
   that is equivariant under row permutations yields a permutation-invariant aggregator; this is
   also the Constant / preference-vector clause (weights permuted alongside) *)
Theorem C10_meta : forall n J J' w w', wfmat n J -> J <> [] ->
  length w = length J -> length w' = length J' ->
  Permutation (List.combine w J) (List.combine w' J') ->
  combineR J w = combineR J' w'.
Proof. exact perm_meta. Qed.
Print Assumptions C10_meta.

Theorem C10_mean_sum : forall n J J', wfmat n J -> J <> [] -> Permutation J J' ->
  agg_mean RN J = agg_mean RN J' /\ agg_sum RN J = agg_sum RN J'.
Proof. exact mean_sum_perm. Qed.
Print Assumptions C10_mean_sum.

Theorem C10_trimmed_mean : forall n b J J', wfmat n J -> J <> [] -> Permutation J J' ->
  agg_trimmed_mean RN b J = agg_trimmed_mean RN b J'.
Proof. exact trimmed_mean_perm. Qed.
Print Assumptions C10_trimmed_mean.

From TJ.proofs Require Import QPProofs C16Proofs EquivarianceProofs.
(* the Gramian of the permuted matrix is the Gramian permuted on both sides *)
Theorem C10_gram_perm : forall J p, gramR (perm_rows p J) = permM p (gramR J).
Proof. exact gram_perm_rows. Qed.
Print Assumptions C10_gram_perm.
(* the constrained minimiser travels with the permutation *)
Theorem C10_qp_minimiser_equivariant : forall m M p u w, length M = m -> wfmat m M -> is_perm m p ->
  length u = m -> length w = m ->
  (is_min m M u w <-> is_min m (permM p M) (permR p u) (permR p w)).
Proof. exact is_min_perm_iff. Qed.
Print Assumptions C10_qp_minimiser_equivariant.
(* ... and is unique for the regularised normalised Gramian, on both sides of the norm_eps branch *)
Theorem C10_qp_minimiser_unique : forall n J p s ne re u w w', wfmat n J -> is_perm (length J) p ->
  (nltb RN s ne = false -> 0 < s) -> 0 < re ->
  is_min (length J) (reg_norm_gramian RN (gramR J) s ne re) u w ->
  is_min (length J) (reg_norm_gramian RN (gramR (perm_rows p J)) s ne re) (permR p u) w' ->
  w' = permR p w.
Proof. exact reg_min_perm_unique. Qed.
Print Assumptions C10_qp_minimiser_unique.
(* DualProj / UPGrad: whenever the QP oracle answers are minimisers on both sides, permuting the
   rows leaves A(J) unchanged (preference vectors permuted alongside: agg_dualproj_perm /
   agg_upgrad_perm in EquivarianceProofs.v) *)
Theorem C10_dualproj : forall n J J' qp s ne re, wfmat n J -> J <> [] -> Permutation J J' ->
  (nltb RN s ne = false -> 0 < s) -> 0 < re ->
  let m := length J in
  let u := mean_weights RN m in
  let M := reg_norm_gramian RN (gramR J) s ne re in
  let M' := reg_norm_gramian RN (gramR J') s ne re in
  is_min m M u (qp M u) -> is_min m M' u (qp M' u) ->
  agg_dualproj RN qp None s ne re J' = agg_dualproj RN qp None s ne re J.
Proof. exact agg_dualproj_Permutation. Qed.
Print Assumptions C10_dualproj.
Theorem C10_upgrad : forall n J J' qp s ne re, wfmat n J -> J <> [] -> Permutation J J' ->
  (nltb RN s ne = false -> 0 < s) -> 0 < re ->
  let m := length J in
  let u := mean_weights RN m in
  let M := reg_norm_gramian RN (gramR J) s ne re in
  let M' := reg_norm_gramian RN (gramR J') s ne re in
  (forall i, (i < m)%nat ->
     is_min m M (onehotR m i (vget RN u i)) (qp M (onehotR m i (vget RN u i))) /\
     is_min m M' (onehotR m i (vget RN u i)) (qp M' (onehotR m i (vget RN u i)))) ->
  agg_upgrad RN qp None s ne re J' = agg_upgrad RN qp None s ne re J.
Proof. exact agg_upgrad_Permutation. Qed.
Print Assumptions C10_upgrad.
(* Krum: with pairwise distinct scores (no exact ties) *)
Theorem C10_krum : forall n J J' f k, wfmat n J -> J <> [] -> Permutation J J' ->
  distinct_on (length J) (krum_scores RN (krum_distances RN (gramR J)) (length J - f - 2)) ->
  agg_krum RN f k J' = agg_krum RN f k J.
Proof. exact agg_krum_Permutation. Qed.
Print Assumptions C10_krum.
(* IMTL-G: a Penrose inverse of the permuted Gramian exists for which the result is unchanged *)
Theorem C10_imtlg : forall n J J' P thr, wfmat n J -> J <> [] -> Permutation J J' ->
  length P = length J -> wfmat (length J) P -> is_pinv (length J) (gramR J) P ->
  exists P', is_pinv (length J') (gramR J') P' /\ agg_imtlg RN P' thr J' = agg_imtlg RN P thr J.
Proof. exact agg_imtlg_Permutation. Qed.
Print Assumptions C10_imtlg.

(* ConFIG, MGDA (no exact ties at the argmin), CAGrad, Aligned-MTL *)
From TJ.proofs Require Import C03Proofs C18Proofs C08Proofs C11Proofs MgdaProofs PublishedProofs ImpartialProofs ScalingProofs ConfigProofs SpectralProofs.
Theorem C10_config : forall J p B pref, wfmat (length J) B -> is_perm (length J) p ->
  (forall w, pref = Some w -> length w = length J) ->
  agg_config RN (config_pinv_perm p B) (option_map (permR p) pref) (perm_rows p J) =
  agg_config RN B pref J.
Proof. exact agg_config_perm. Qed.
Print Assumptions C10_config.
Theorem C10_mgda : forall n J J' eps iters, wfmat n J -> J <> [] -> Permutation J J' ->
  mgda_no_ties iters (gramR J) eps (mean_weights RN (length J)) ->
  agg_mgda RN eps iters J' = agg_mgda RN eps iters J.
Proof. intros n J J' eps iters HJ _. exact (agg_mgda_Permutation n J J' eps iters HJ). Qed.
Print Assumptions C10_mgda.
Theorem C10_cagrad : forall n J p s ne c w_opt, wfmat n J -> J <> [] ->
  is_perm (length J) p -> length w_opt = length J ->
  agg_cagrad RN s ne c (permR p w_opt) (perm_rows p J) = agg_cagrad RN s ne c w_opt J.
Proof. intros n J p s ne c w_opt HJ _. exact (agg_cagrad_perm n J p s ne c w_opt HJ). Qed.
Print Assumptions C10_cagrad.
Theorem C10_cagrad_contract_transfers : forall m Gn p c w_opt, length Gn = m -> wfmat m Gn ->
  is_perm m p -> cagrad_opt Gn c w_opt -> cagrad_opt (permM p Gn) c (permR p w_opt).
Proof. exact cagrad_opt_perm. Qed.
Print Assumptions C10_cagrad_contract_transfers.
Theorem C10_aligned : forall n J p lam Vt tol pref, wfmat n J -> J <> [] ->
  is_perm (length J) p -> length lam = length J ->
  (forall w, pref = Some w -> length w = length J) ->
  agg_aligned RN lam (map (permR p) Vt) tol (option_map (permR p) pref) (perm_rows p J) =
  agg_aligned RN lam Vt tol pref J.
Proof. intros n J p lam Vt tol pref HJ _. exact (agg_aligned_perm n J p lam Vt tol pref HJ). Qed.
Print Assumptions C10_aligned.

(* GradDrop under a fixed seed: the draws u_j belong to the columns, so permuting the rows
   TOGETHER WITH the leak vector leaves every coordinate unchanged (no tie-freeness needed: the sign
   purity and the masked sums are symmetric functions of the zipped (leak_i, J_ij) list) *)
Theorem C10_graddrop_coordinate : forall leak leak' col col' u,
  length leak = length col -> length leak' = length col' ->
  Permutation (List.combine leak col) (List.combine leak' col') ->
  graddrop_coord RN leak' col' u = graddrop_coord RN leak col u.
Proof. exact graddrop_coord_perm. Qed.
Print Assumptions C10_graddrop_coordinate.
Theorem C10_graddrop : forall n J J' leak leak' U, wfmat n J ->
  length leak = length J -> length leak' = length J' ->
  Permutation (List.combine leak J) (List.combine leak' J') ->
  agg_graddrop RN (Some leak') U J' = agg_graddrop RN (Some leak) U J.
Proof. exact graddrop_Permutation. Qed.
Print Assumptions C10_graddrop.
Theorem C10_graddrop_default_leak : forall n J J' U, wfmat n J -> Permutation J J' ->
  agg_graddrop RN None U J' = agg_graddrop RN None U J.
Proof. exact graddrop_Permutation_noleak. Qed.
Print Assumptions C10_graddrop_default_leak.
