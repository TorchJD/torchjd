(* C06 — gradients accumulate; nothing but the requested .grad fields is touched.
   Obligations only.  Tensor VALUES are not part of the model's store at all (no transform can
   write them: a by-construction fact, observed on the implementation by the correspondence
   check); the .grad fields, their storage identity and the allocation counter are. *)
From Coq Require Import Reals List Bool Arith.
From TJ Require Import Num Linalg NumR Chunk Autojac Traverse History.
From TJ.proofs Require Import LinalgR AutojacBasics AutojacSpec EntrySpec C20Proofs C01Proofs C06Proofs C06HistProofs.
Import ListNotations.

Section C06.
Context {T : Type} (N : Num T) (P : prog T) (A : list (list T) -> res (list T)).

(* FRAME: only the keys handed to Accumulate can change — for any pipeline, successful or not *)
Theorem C06_frame : forall t s d r s' k,
  ~ In k (acc_keys t) -> run N P A t s d = (r, s') -> sget s' k = sget s k.
Proof. exact (run_frame N P A). Qed.
Theorem C06_backward_frame : forall tensors ord k retain s r s' t,
  ~ In t ord -> backward_model N P A tensors ord k retain s = (r, s') -> sget s' t = sget s t.
Proof. exact (backward_frame N P A). Qed.
Theorem C06_mtl_frame : forall losses features tasks shared k retain s r s' t,
  ~ In t (shared ++ concat tasks) ->
  mtl_backward_model N P A losses features tasks shared k retain s = (r, s') -> sget s' t = sget s t.
Proof. exact (mtl_frame N P A). Qed.

(* an existing .grad is added to IN PLACE (same storage), an absent one is created *)
Theorem C06_adds_in_place : forall s k v g,
  sget s k = Some g ->
  sget (accumulate_one N s (k, v)) k = Some (mkG (g_sid g) (tadd N (g_val g) v)).
Proof. exact (accumulate_one_adds N). Qed.
Theorem C06_creates_when_absent : forall s k v,
  sget s k = None -> sget (accumulate_one N s (k, v)) k = Some (mkG (s_next s) v).
Proof. exact (accumulate_one_creates N). Qed.

(* FRESH STORAGE: after ANY call every pre-existing .grad has kept its storage, and every .grad
   the call created has a storage that did not exist before and is shared with no other .grad *)
Theorem C06_fresh_storage : forall t s d r s',
  store_wf s -> run N P A t s d = (r, s') -> store_wf s' /\ extends s s'.
Proof. exact (run_extends N P A). Qed.
Theorem C06_backward_fresh_storage : forall tensors ord k retain s r s',
  store_wf s -> backward_model N P A tensors ord k retain s = (r, s') -> store_wf s' /\ extends s s'.
Proof. exact (backward_extends N P A). Qed.
Theorem C06_mtl_fresh_storage : forall losses features tasks shared k retain s r s',
  store_wf s -> mtl_backward_model N P A losses features tasks shared k retain s = (r, s') ->
  store_wf s' /\ extends s s'.
Proof. exact (mtl_extends N P A). Qed.
End C06.

(* n identical calls on a retained graph with a deterministic aggregator: the single-call update
   accumulated n times *)
Theorem C06_n_fold : forall (P : prog R) A n tensors ord k s s',
  wf_prog P -> ord <> [] -> (1 <= total P tensors)%nat ->
  repeat_backward P A n tensors ord k s = Some s' ->
  (forall i, In i ord -> grad_val s' i = acc_n n (grad_val s i) (update_of P A tensors ord i)) /\
  (forall t, ~ In t ord -> sget s' t = sget s t).
Proof. exact backward_n_fold. Qed.

(* REFINEMENT to the abstract accumulator, for every history of backward calls (accepted or
   rejected) interleaved with zeroing, setting to None and in-place edits of .grad *)
Theorem C06_refines_accumulator : forall (P : prog R) hs s,
  wf_prog P -> simple_history P hs ->
  forall t, grad_val (snd (hrun RN P s hs)) t = abs_run P (grad_val s) hs (fst (hrun RN P s hs)) t.
Proof. exact history_refines_accumulator. Qed.

Print Assumptions C06_frame.
Print Assumptions C06_backward_frame.
Print Assumptions C06_mtl_frame.
Print Assumptions C06_adds_in_place.
Print Assumptions C06_creates_when_absent.
Print Assumptions C06_fresh_storage.
Print Assumptions C06_backward_fresh_storage.
Print Assumptions C06_mtl_fresh_storage.
Print Assumptions C06_n_fold.
Print Assumptions C06_refines_accumulator.

(* ---- ALL history operations: backward, mtl_backward (accepted, or rejected for its
   arguments), bare engine runs, zero_(), = None, in-place edits ---- *)
From TJ.proofs Require Import C02Proofs C06FullHistProofs.
Theorem C06_refines_accumulator_full : forall (P : prog R) hs s,
  wf_prog P -> full_history_ok P s hs ->
  forall t, grad_val (snd (hrun RN P s hs)) t
            = abs_run_full P (grad_val s) hs (fst (hrun RN P s hs)) t.
Proof. exact full_history_refines_accumulator. Qed.
Print Assumptions C06_refines_accumulator_full.
(* n identical accepted mtl_backward calls on a retained graph: the single-call update n times *)
Theorem C06_mtl_n_fold : forall (P : prog R) A n losses features tasks shared k s s',
  wf_prog P -> repeat_mtl P A n losses features tasks shared k s = Some s' ->
  forall t, grad_val s' t = iter_update n (mtl_update P A losses features tasks shared) (grad_val s) t.
Proof. exact mtl_n_fold. Qed.
Print Assumptions C06_mtl_n_fold.
