(* C15 — each building-block transform computes its specified linear map, for all shapes.
   Obligations only.  Key counts, shapes (only numel matters: rows are row-major flat data), batch
   sizes, chunk sizes, programs and cotangent values are universally quantified. *)
From Coq Require Import Reals List Bool Arith.
From TJ Require Import Num Linalg NumR Chunk Autojac.
From TJ.proofs Require Import LinalgR ChunkProofs AutojacBasics AutojacSpec EntrySpec C20Proofs C01Proofs C15Proofs.
Import ListNotations.

Section C15gen.
Context {T : Type} (N : Num T) (P : prog T) (A : list (list T) -> res (list T)).

Theorem C15_init_ones : forall vals s d d' s',
  run N P A (TInit vals) s d = (Ok d', s') ->
  s' = s /\ dk d' = KGradients /\
  (forall v, In v vals -> dget d' v = Some (plain (p_shape P v) (vones N (pnumel P v)))) /\
  (forall v, ~ In v vals -> dget d' v = None).
Proof. exact (init_ones N P A). Qed.

Theorem C15_select : forall keys req s d d' s',
  run N P A (TSelect keys req) s d = (Ok d', s') ->
  s' = s /\ dk d' = dk d /\
  (forall k, In k keys -> dget d' k = Some (dget' d k)) /\
  (forall k, ~ In k keys -> dget d' k = None).
Proof. exact (select_spec N P A). Qed.

(* one row per scalar, in key order; row r holds the r-th scalar of the flattened input at
   position r and zeros elsewhere (a one-hot row scaled by that entry); key number j receives its
   own columns, offsets accumulating over the key order *)
Theorem C15_diag : forall c s d d' s',
  NoDup c -> run N P A (TDiag c) s d = (Ok d', s') ->
  let flatv := concat (map (fun k => flat (dget' d k)) c) in
  s' = s /\ dk d' = KJacobians /\
  forall j k, nth_error c j = Some k ->
    dget d' k = Some (mkTens true (p_shape P k)
      (map (fun r => nth j (split_by (map (pnumel P) c)
                                     (onehot N (length flatv) r (nth r flatv (n0 N)))) [])
           (seq 0 (length flatv)))).
Proof. exact (diag_spec N P A). Qed.

(* row i of every key comes from member i, zeros when member i lacks the key; keys = union *)
Theorem C15_stack : forall ts s d d' s',
  run N P A (TStack ts) s d = (Ok d', s') ->
  exists ds, run_list N P A d ts s = (Ok ds, s') /\ dk d' = KJacobians /\
    (forall k, In k (flat_map dkeys ds) ->
       dget d' k = Some (mkTens true (p_shape P k)
                     (map (fun di => match dget di k with
                                     | Some v => flat v | None => vzero N (pnumel P k) end) ds))) /\
    (forall k, ~ In k (flat_map dkeys ds) -> dget d' k = None).
Proof. exact (stack_spec N P A). Qed.
End C15gen.

Section C15R.
Variable P : prog R.
Variable A : list (list R) -> res (list R).

(* Grad: for each input, the vector-Jacobian product of the given cotangents *)
Theorem C15_grad_is_vjp : forall outs ins retain s d d' s',
  wf_prog P -> outs <> [] ->
  (forall o, In o outs -> length (flat (dget' d o)) = pnumel P o) ->
  run RN P A (TGrad outs ins retain) s d = (Ok d', s') ->
  dk d' = dk d /\
  forall i, In i ins ->
    dget d' i = Some (plain (p_shape P i) (vjp RN P outs (map (fun o => flat (dget' d o)) outs) i)).
Proof. exact (grad_is_vjp P A). Qed.

Theorem C15_unreachable_zero : forall outs cots i,
  wf_prog P -> (forall o, In o outs -> p_reach P o i = false) ->
  vjp RN P outs cots i = vzeroR (pnumel P i).
Proof. exact (vjp_unreachable_zero P). Qed.

(* Jac: row r of every output = Grad of row r of the cotangent batch, for EVERY chunk size *)
Theorem C15_jac_rows : forall outs ins k retain s d d' s' m,
  wf_prog P -> outs <> [] -> NoDup ins -> valid_chunk k = true -> (1 <= m)%nat ->
  (forall o, In o outs -> nrows (dget' d o) = m /\
                          Forall (fun row => length row = pnumel P o) (t_rows (dget' d o))) ->
  run RN P A (TJac outs ins k retain) s d = (Ok d', s') ->
  dk d' = dk d /\
  forall i, In i ins ->
    dget d' i = Some (mkTens true (p_shape P i)
      (map (fun r => vjp RN P outs (map (fun o => nth r (t_rows (dget' d o)) []) outs) i) (seq 0 m))).
Proof. exact (jac_rows P A). Qed.

Theorem C15_vjp_linear : forall outs c1 c2 a b i,
  wf_prog P -> length c1 = length outs -> length c2 = length outs ->
  (forall j o, nth_error outs j = Some o ->
     length (nth j c1 []) = pnumel P o /\ length (nth j c2 []) = pnumel P o) ->
  vjp RN P outs (map (fun cc => vaddR (vscaleR a (fst cc)) (vscaleR b (snd cc))) (combine c1 c2)) i
  = vaddR (vscaleR a (vjp RN P outs c1 i)) (vscaleR b (vjp RN P outs c2 i)).
Proof. exact (vjp_linear P). Qed.

(* chaining two differentiations through intermediate tensors equals differentiating end to end,
   whenever the intermediate tensors form a cut (D o i = sum_f D o f * D f i) *)
Theorem C15_chain : forall outs mid i cots,
  wf_prog P -> length cots = length outs ->
  (forall j o, nth_error outs j = Some o -> length (nth j cots []) = pnumel P o) ->
  is_cut P outs mid i ->
  vjp RN P mid (map (fun f => vjp RN P outs cots f) mid) i = vjp RN P outs cots i.
Proof. exact (vjp_chain P). Qed.

(* Aggregate: the aggregator applied to the column-wise concatenation, in key order, of the
   per-key matrices; each key gets back its own reshaped slice *)
Theorem C15_aggregate : forall ord s d d' s',
  ord <> [] -> NoDup ord ->
  (forall k, In k ord -> numel (t_trail (dget' d k)) = pnumel P k) ->
  run RN P A (TAggregate ord) s d = (Ok d', s') ->
  s' = s /\ dk d' = KGradients /\
  exists v,
    A (map (fun r => concat (map (fun k => nth r (t_rows (dget' d k)) []) ord))
           (seq 0 (nrows (dget' d (hd O ord))))) = Ok v /\
    length v = total P ord /\
    forall k, In k ord -> dget d' k = Some (plain (p_shape P k) (slice_of P ord v k)).
Proof. exact (aggregate_spec P A). Qed.
End C15R.

Print Assumptions C15_init_ones.
Print Assumptions C15_select.
Print Assumptions C15_diag.
Print Assumptions C15_stack.
Print Assumptions C15_grad_is_vjp.
Print Assumptions C15_unreachable_zero.
Print Assumptions C15_jac_rows.
Print Assumptions C15_vjp_linear.
Print Assumptions C15_chain.
Print Assumptions C15_aggregate.

(* ---- chaining at the TRANSFORM level: Jac(mid -> ins) o Jac(outs -> mid) = Jac(outs -> ins)
   whenever mid is a cut, for all three chunk sizes and flags independently; same for Grad ---- *)
From TJ.proofs Require Import C02Proofs C05Proofs EndToEndProofs.
Theorem C15_jac_chain : forall (P : prog R) A outs mid ins k1 r1 k2 r2 k r s d dc sc se de se' m,
  wf_prog P -> outs <> [] -> mid <> [] -> NoDup mid -> NoDup ins ->
  valid_chunk k1 = true -> valid_chunk k2 = true -> valid_chunk k = true -> (1 <= m)%nat ->
  (forall o, In o outs -> nrows (dget' d o) = m /\
                          Forall (fun row => length row = pnumel P o) (t_rows (dget' d o))) ->
  (forall i, In i ins -> is_cut P outs mid i) ->
  run RN P A (TComp (TJac mid ins k2 r2) (TJac outs mid k1 r1)) s d = (Ok dc, sc) ->
  run RN P A (TJac outs ins k r) se d = (Ok de, se') ->
  dk dc = dk de /\
  forall i, In i ins ->
    dget dc i = dget de i /\
    dget dc i = Some (mkTens true (p_shape P i)
      (map (fun r0 => vjp RN P outs (map (fun o => nth r0 (t_rows (dget' d o)) []) outs) i)
           (seq 0 m))).
Proof. exact jac_comp_chain. Qed.
Print Assumptions C15_jac_chain.
Theorem C15_grad_chain : forall (P : prog R) A outs mid ins r1 r2 r s d dc sc se de se',
  wf_prog P -> outs <> [] -> mid <> [] -> NoDup mid ->
  (forall o, In o outs -> length (flat (dget' d o)) = pnumel P o) ->
  (forall i, In i ins -> is_cut P outs mid i) ->
  run RN P A (TComp (TGrad mid ins r2) (TGrad outs mid r1)) s d = (Ok dc, sc) ->
  run RN P A (TGrad outs ins r) se d = (Ok de, se') ->
  dk dc = dk de /\ forall i, In i ins -> dget dc i = dget de i.
Proof. exact grad_comp_chain. Qed.
Print Assumptions C15_grad_chain.
