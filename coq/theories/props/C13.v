(* C13 — retain_graph means what it means in torch.autograd.  Obligations only.
   The engine's release of saved tensors is the environment model of Autojac.v (ag_sweep /
   exec_nodes), validated against the real engine by the correspondence check; the theorems are
   about the sweeps torchjd issues and the flags it gives them, for every program, chunk size,
   number of rows, and store. *)
From Coq Require Import List Bool Arith.
From TJ Require Import Num Linalg Chunk Autojac Traverse.
From TJ.proofs Require Import ChunkProofs AutojacBasics EntrySpec C20Proofs C13Proofs.
Import ListNotations.

Section C13.
Context {T : Type} (N : Num T) (P : prog T) (A : list (list T) -> res (list T)).

(* one engine run, as a function of the state: it succeeds iff sweep_ok, and frees the executed
   saved nodes exactly when retain = false *)
Theorem C13_engine_run : forall s outs ins rows b retain,
  ag_sweep P s outs ins rows b retain =
  if sweep_ok P s outs ins
  then (Ok tt, mkStore (s_grads s)
                 (if retain then s_freed s else s_freed s ++ saved_exec P outs ins)
                 (mkSweep outs ins rows b retain :: s_log s) (s_next s))
  else (Err RuntimeError, s).
Proof. exact (ag_sweep_spec P). Qed.

(* whether a further differentiation fails or succeeds is a function of the freed set only *)
Theorem C13_followup_depends_on_freed_only : forall (s1 s2 : @store T) outs ins,
  s_freed s1 = s_freed s2 -> sweep_ok P s1 outs ins = sweep_ok P s2 outs ins.
Proof. exact (sweep_ok_freed P). Qed.

(* NO SELF-SABOTAGE: with retain_graph=False the chunked differentiation succeeds for EVERY row
   count m and chunk size k whenever a single engine run would, although it differentiates the
   same graph ceil(m/k) times; it issues exactly the chunk plan's sweeps and frees exactly what
   that single run would free *)
Theorem C13_no_self_sabotage : forall m k retain s outs ins d,
  sweep_ok P s outs ins = true ->
  exists rows, jac_chunks N P s outs ins d (chunk_plan m k retain) =
    (Ok rows, mkStore (s_grads s)
                (if retain then s_freed s else s_freed s ++ saved_exec P outs ins)
                (rev (plan_sweeps outs ins (chunk_plan m k retain)) ++ s_log s) (s_next s)).
Proof. exact (jac_chunks_engine N P). Qed.
Theorem C13_fails_like_one_run : forall m k retain s outs ins d,
  sweep_ok P s outs ins = false ->
  jac_chunks N P s outs ins d (chunk_plan m k retain) = (Err RuntimeError, s).
Proof. exact (jac_chunks_engine_fail N P). Qed.

(* backward: afterwards the graph is freed exactly as after ONE engine run with the caller's flag
   (torch.autograd.backward(tensors, inputs=ord, retain_graph=retain)) *)
Theorem C13_backward_frees_like_torch : forall tensors ord k retain s d' s',
  ord <> [] ->
  backward_model N P A tensors ord k retain s = (Ok d', s') ->
  s_freed s' = if retain then s_freed s else s_freed s ++ saved_exec P tensors ord.
Proof. exact (backward_freed N P A). Qed.
Theorem C13_backward_sweeps : forall tensors ord k retain s d' s',
  ord <> [] ->
  backward_model N P A tensors ord k retain s = (Ok d', s') ->
  exists m, s_log s' = rev (plan_sweeps tensors ord (chunk_plan m k retain)) ++ s_log s.
Proof. exact (backward_log N P A). Qed.

(* retain_graph=True: the graph stays fully usable — for ANY pipeline, successful or not *)
Theorem C13_retain_keeps_graph : forall t s d r s',
  all_retain t = true -> run N P A t s d = (r, s') -> s_freed s' = s_freed s.
Proof. exact (retain_keeps_graph N P A). Qed.
Theorem C13_backward_retain_true : forall tensors ord k s r s',
  backward_model N P A tensors ord k true s = (r, s') -> s_freed s' = s_freed s.
Proof. exact (backward_retain_true N P A). Qed.
Theorem C13_mtl_retain_true : forall losses features tasks shared k s r s',
  mtl_backward_model N P A losses features tasks shared k true s = (r, s') -> s_freed s' = s_freed s.
Proof. exact (mtl_retain_true N P A). Qed.

(* mtl_backward: one engine run per task with the caller's flag, then the chunked Jacobian of the
   features w.r.t. the shared parameters: heads and trunk are freed as by torch.autograd *)
Theorem C13_mtl_frees : forall losses features tasks shared k retain s d' s',
  shared <> [] ->
  mtl_backward_model N P A losses features tasks shared k retain s = (Ok d', s') ->
  s_freed s' = if retain then s_freed s else
    s_freed s
    ++ concat (map (fun pl => saved_exec P [snd pl] (fst pl ++ features)) (combine tasks losses))
    ++ saved_exec P features shared.
Proof. exact (mtl_freed N P A). Qed.
End C13.

Print Assumptions C13_engine_run.
Print Assumptions C13_followup_depends_on_freed_only.
Print Assumptions C13_no_self_sabotage.
Print Assumptions C13_fails_like_one_run.
Print Assumptions C13_backward_frees_like_torch.
Print Assumptions C13_backward_sweeps.
Print Assumptions C13_retain_keeps_graph.
Print Assumptions C13_backward_retain_true.
Print Assumptions C13_mtl_retain_true.
Print Assumptions C13_mtl_frees.

(* ---- mtl_backward with retain_graph=False and separate heads: NO SELF-SABOTAGE ----
   heads_separate: the saved-node sets of the per-task engine runs are pairwise disjoint, disjoint
   from the trunk's and from what is already freed (the property's side condition "heads that share
   no graph node besides the features").  It is SUFFICIENT for every engine run of the call to
   succeed, for both flags, and NECESSARY when retain_graph=False; two heads sharing a saved node make
   the call fail with RuntimeError. *)
From Coq Require Import Reals.
From TJ Require Import NumR.
From TJ.proofs Require Import LinalgR AutojacSpec C01Proofs C02Proofs C15Proofs AcceptProofs C13MtlProofs.
Theorem C13_mtl_no_self_sabotage : forall (P : prog R) A losses features tasks shared k retain s v,
  wf_prog P -> shared <> [] ->
  mtl_args_ok P losses features tasks shared k retain = true ->
  heads_separate P s losses features tasks shared ->
  A (mtl_matrix P features shared losses) = Ok v -> length v = total P shared ->
  exists d' s', mtl_backward_model RN P A losses features tasks shared k retain s = (Ok d', s').
Proof. exact mtl_no_self_sabotage. Qed.
Print Assumptions C13_mtl_no_self_sabotage.
Theorem C13_mtl_side_condition_is_exact : forall (P : prog R) A losses features tasks shared k s v,
  wf_prog P -> shared <> [] ->
  mtl_args_ok P losses features tasks shared k false = true ->
  A (mtl_matrix P features shared losses) = Ok v -> length v = total P shared ->
  ((exists d' s', mtl_backward_model RN P A losses features tasks shared k false s = (Ok d', s'))
   <-> heads_separate P s losses features tasks shared).
Proof. exact mtl_retain_false_iff. Qed.
Print Assumptions C13_mtl_side_condition_is_exact.
