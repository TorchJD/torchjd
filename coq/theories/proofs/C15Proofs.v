(* C15Proofs.v — every building-block transform computes its specified linear map:
   Init, Select, Diagonalize, Stack (any number type); Grad, Jac, Aggregate and the algebra of the
   vector-Jacobian product (linearity, chain rule over a cut) at the reals. *)
From Coq Require Import Reals List Bool Arith.
From TJ Require Import Num Linalg NumR Chunk Autojac.
From TJ.proofs Require Import LinalgR C08Proofs AutojacBasics AutojacSpec C20Proofs C01Proofs.
Import ListNotations.
Local Open Scope R_scope.

Lemma dget_dedup_items {T} (g : tid -> @tens T) kd l :
  (forall k, In k l -> dget (mkDict kd (map (fun i => (i, g i)) (dedup l))) k = Some (g k)) /\
  (forall k, ~ In k l -> dget (mkDict kd (map (fun i => (i, g i)) (dedup l))) k = None).
Proof.
  split; intros k Hk.
  - apply dget_items. apply dedup_In. exact Hk.
  - apply dget_items_none. intros Hin. apply Hk. apply dedup_In. exact Hin.
Qed.

Section C15gen.
Context {T : Type} (N : Num T) (P : prog T) (A : list (list T) -> res (list T)).

Lemma init_ones : forall vals s d d' s',
  run N P A (TInit vals) s d = (Ok d', s') ->
  s' = s /\ dk d' = KGradients /\
  (forall v, In v vals -> dget d' v = Some (plain (p_shape P v) (vones N (pnumel P v)))) /\
  (forall v, ~ In v vals -> dget d' v = None).
Proof.
  intros vals s d d' s' H. apply run_init_inv in H. destruct H as [-> ->].
  split; [reflexivity|]. split; [reflexivity|].
  exact (dget_dedup_items (fun v => plain (p_shape P v) (vones N (pnumel P v))) KGradients vals).
Qed.

Lemma select_spec : forall keys req s d d' s',
  run N P A (TSelect keys req) s d = (Ok d', s') ->
  s' = s /\ dk d' = dk d /\
  (forall k, In k keys -> dget d' k = Some (dget' d k)) /\
  (forall k, ~ In k keys -> dget d' k = None).
Proof.
  intros keys req s d d' s' H. apply run_select_inv in H. destruct H as [-> ->].
  split; [reflexivity|]. split; [reflexivity|]. exact (dget_dedup_items (dget' d) (dk d) keys).
Qed.

Lemma diag_spec : forall c s d d' s',
  NoDup c -> run N P A (TDiag c) s d = (Ok d', s') ->
  let flatv := concat (map (fun k => flat (dget' d k)) c) in
  s' = s /\ dk d' = KJacobians /\
  forall j k, nth_error c j = Some k ->
    dget d' k = Some (mkTens true (p_shape P k)
      (map (fun r => nth j (split_by (map (pnumel P) c)
                                     (onehot N (length flatv) r (nth r flatv (n0 N)))) [])
           (seq 0 (length flatv)))).
Proof.
  intros c s d d' s' Hnd H flatv.
  apply run_diag_inv in H. destruct H as (-> & _ & Hd). cbv zeta in Hd. fold flatv in Hd.
  split; [reflexivity|]. split; [subst d'; reflexivity|].
  intros j k Hj. subst d'. etransitivity; [apply (dget_indexed _ _ c j k Hnd Hj)|].
  cbn [fst snd]. rewrite map_map. reflexivity.
Qed.

Lemma stack_spec : forall ts s d d' s',
  run N P A (TStack ts) s d = (Ok d', s') ->
  exists ds, run_list N P A d ts s = (Ok ds, s') /\ dk d' = KJacobians /\
    (forall k, In k (flat_map dkeys ds) ->
       dget d' k = Some (mkTens true (p_shape P k)
                     (map (fun di => match dget di k with
                                     | Some v => flat v | None => vzero N (pnumel P k) end) ds))) /\
    (forall k, ~ In k (flat_map dkeys ds) -> dget d' k = None).
Proof.
  intros ts s d d' s' H. apply run_stack_inv in H. destruct H as (ds & Hl & Hd).
  exists ds. split; [exact Hl|]. apply mk_dict_ok in Hd. subst d'. split; [reflexivity|].
  exact (dget_dedup_items _ KJacobians (flat_map dkeys ds)).
Qed.
End C15gen.

Lemma vadd_interchange : forall X Y U V : list R,
  vaddR (vaddR X Y) (vaddR U V) = vaddR (vaddR X U) (vaddR Y V).
Proof. intros X Y U V. rewrite <- vadd_assoc, (vadd_swap Y U V), vadd_assoc. reflexivity. Qed.

Definition madd (X Y : list (list R)) : list (list R) :=
  map (fun xy => vaddR (fst xy) (snd xy)) (combine X Y).

Lemma length_madd : forall X Y, length X = length Y -> length (madd X Y) = length X.
Proof.
  intros X Y H. unfold madd. rewrite map_length, combine_length, H. apply Nat.min_id.
Qed.

Lemma vm_madd n : forall c X Y, length X = length Y ->
  vmR n c (madd X Y) = vaddR (vmR n c X) (vmR n c Y).
Proof.
  induction c as [|x c IH]; intros X Y Hl.
  - cbn [vm]. symmetry. apply vadd_vzero_vzero.
  - destruct X as [|r X]; destruct Y as [|q Y]; try discriminate.
    + unfold madd. cbn [combine map vm]. symmetry. apply vadd_vzero_vzero.
    + unfold madd. cbn [combine map fst snd vm]. fold (madd X Y).
      rewrite IH by exact (eq_add_S _ _ Hl). rewrite vscale_vadd. apply vadd_interchange.
Qed.

Section C15R.
Variable P : prog R.
Variable A : list (list R) -> res (list R).

Lemma grad_vjp outs ins retain s d d' s' :
  wf_prog P -> outs <> [] ->
  run RN P A (TGrad outs ins retain) s d = (Ok d', s') ->
  dk d' = dk d /\
  forall i, In i ins ->
    dget d' i = Some (plain (p_shape P i) (vjp RN P outs (map (fun o => flat (dget' d o)) outs) i)).
Proof.
  intros Hwf Ho H. destruct ins as [|i0 ins].
  - apply run_grad_noins in H. destruct H as [_ ->]. split; [reflexivity|]. intros i [].
  - apply run_grad_inv in H; [|exact Ho|discriminate]. destruct H as [_ ->].
    split; [reflexivity|]. intros i Hi. rewrite dget_items by exact Hi.
    rewrite materialize_vjp by exact Hwf. reflexivity.
Qed.

Lemma grad_is_vjp : forall outs ins retain s d d' s',
  wf_prog P -> outs <> [] ->
  (forall o, In o outs -> length (flat (dget' d o)) = pnumel P o) ->
  run RN P A (TGrad outs ins retain) s d = (Ok d', s') ->
  dk d' = dk d /\
  forall i, In i ins ->
    dget d' i = Some (plain (p_shape P i) (vjp RN P outs (map (fun o => flat (dget' d o)) outs) i)).
Proof. intros outs ins retain s d d' s' Hwf Ho _. apply grad_vjp; assumption. Qed.

Lemma vjp_unreachable_zero : forall outs cots i,
  wf_prog P -> (forall o, In o outs -> p_reach P o i = false) ->
  vjp RN P outs cots i = vzeroR (pnumel P i).
Proof. intros outs cots i Hwf Hun. apply vjp_unreach; assumption. Qed.

Lemma jac_vjp_rows outs ins k retain s d d' s' :
  wf_prog P -> outs <> [] -> NoDup ins -> valid_chunk k = true ->
  run RN P A (TJac outs ins k retain) s d = (Ok d', s') ->
  dk d' = dk d /\
  forall i, In i ins ->
    dget d' i = Some (mkTens true (p_shape P i)
      (map (fun r => vjp RN P outs (map (fun o => nth r (t_rows (dget' d o)) []) outs) i)
           (seq 0 (nrows (dget' d (hd O outs)))))).
Proof.
  intros Hwf Ho Hnd Hk H. destruct ins as [|i0 ins].
  - apply run_jac_noins in H. destruct H as [_ ->]. split; [reflexivity|]. intros i [].
  - apply (jac_stage P A _ _ _ _ _ _ _ _ (nrows (dget' d (hd O outs))) Ho) in H;
      [|discriminate|exact Hk|reflexivity].
    subst d'. split; [reflexivity|].
    intros i Hin. apply In_nth_error in Hin. destruct Hin as [j Hj].
    rewrite (map_ext _ _ (fun r => jac_row_vjp P outs (i0 :: ins) d r Hwf)).
    exact (dget_sdict_blocks (dk d) true _ (pnumel P)
             (fun r i1 => vjp RN P outs (map (fun o => nth r (t_rows (dget' d o)) []) outs) i1)
             _ _ j i Hnd Hj (fun r i1 => length_vjp P outs _ i1 Hwf)).
Qed.

Lemma jac_vjp_given outs ins k retain s d d' s' m (V : nat -> tid -> list R) :
  wf_prog P -> outs <> [] -> NoDup ins -> valid_chunk k = true ->
  (forall o, In o outs -> t_rows (dget' d o) = map (fun r => V r o) (seq 0 m)) ->
  run RN P A (TJac outs ins k retain) s d = (Ok d', s') ->
  dk d' = dk d /\
  forall i, In i ins ->
    dget d' i = Some (mkTens true (p_shape P i)
                        (map (fun r => vjp RN P outs (map (V r) outs) i) (seq 0 m))).
Proof.
  intros Hwf Ho Hnd Hk HV H.
  destruct (jac_vjp_rows outs ins k retain s d d' s' Hwf Ho Hnd Hk H) as [Hdk Hd].
  split; [exact Hdk|]. intros i Hi. rewrite (Hd i Hi). unfold nrows.
  rewrite (HV _ (nth_error_In _ _ (nth_error_hd outs Ho))), map_length, seq_length.
  apply (f_equal (fun rows => Some (mkTens true (p_shape P i) rows))).
  apply map_ext_in. intros r Hr. apply in_seq in Hr.
  apply (f_equal (fun cots => vjp RN P outs cots i)).
  apply map_ext_in. intros o Ho'. rewrite (HV o Ho'). exact (nth_map_seq _ [] m r (proj2 Hr)).
Qed.

Lemma jac_rows : forall outs ins k retain s d d' s' m,
  wf_prog P -> outs <> [] -> NoDup ins -> valid_chunk k = true -> (1 <= m)%nat ->
  (forall o, In o outs -> nrows (dget' d o) = m /\
                          Forall (fun row => length row = pnumel P o) (t_rows (dget' d o))) ->
  run RN P A (TJac outs ins k retain) s d = (Ok d', s') ->
  dk d' = dk d /\
  forall i, In i ins ->
    dget d' i = Some (mkTens true (p_shape P i)
      (map (fun r => vjp RN P outs (map (fun o => nth r (t_rows (dget' d o)) []) outs) i) (seq 0 m))).
Proof.
  intros outs ins k retain s d d' s' m Hwf Ho Hnd Hk _ Hrows H.
  destruct outs as [|o0 outs]; [congruence|].
  rewrite <- (proj1 (Hrows o0 (or_introl eq_refl))).
  apply (jac_vjp_rows (o0 :: outs) ins k retain s d d' s'); assumption.
Qed.

Lemma vjp_linear : forall outs c1 c2 a b i,
  wf_prog P -> length c1 = length outs -> length c2 = length outs ->
  (forall j o, nth_error outs j = Some o ->
     length (nth j c1 []) = pnumel P o /\ length (nth j c2 []) = pnumel P o) ->
  vjp RN P outs (map (fun cc => vaddR (vscaleR a (fst cc)) (vscaleR b (snd cc))) (combine c1 c2)) i
  = vaddR (vscaleR a (vjp RN P outs c1 i)) (vscaleR b (vjp RN P outs c2 i)).
Proof.
  induction outs as [|o outs IH]; intros c1 c2 a b i Hwf H1 H2 Hl.
  - rewrite !vjp_nil, !vscale_vzero, vadd_vzero_vzero. reflexivity.
  - destruct c1 as [|x c1]; [discriminate|]. destruct c2 as [|y c2]; [discriminate|].
    cbn [combine map fst snd]. rewrite !vjp_cons.
    destruct (Hl O o eq_refl) as [Hx Hy]. cbn [nth] in Hx, Hy.
    pose proof Hwf as [Hdim _]. destruct (Hdim o i) as [HlD HM].
    rewrite (IH c1 c2 a b i Hwf (eq_add_S _ _ H1) (eq_add_S _ _ H2) (fun j o' Hj => Hl (S j) o' Hj)).
    rewrite vm_vadd by first [exact HM | rewrite !length_vscale, Hx, Hy; reflexivity].
    rewrite !vm_vscale by exact HM.
    rewrite vadd_interchange, <- !vscale_vadd. reflexivity.
Qed.

Lemma vjp_vadd_map i (V1 V2 : tid -> list R) : forall mid, wf_prog P ->
  (forall f, length (V1 f) = length (V2 f)) ->
  vjp RN P mid (map (fun f => vaddR (V1 f) (V2 f)) mid) i
  = vaddR (vjp RN P mid (map V1 mid) i) (vjp RN P mid (map V2 mid) i).
Proof.
  induction mid as [|f mid IH]; intros Hwf HV.
  - rewrite !vjp_nil. symmetry. apply vadd_vzero_vzero.
  - cbn [map]. rewrite !vjp_cons. rewrite IH by assumption.
    pose proof Hwf as [Hdim _]. destruct (Hdim f i) as [_ HM].
    rewrite vm_vadd by first [exact HM | apply HV]. apply vadd_interchange.
Qed.

(* the intermediate tensors [mid] form a cut between [outs] and i:  D o i = sum_f D o f * D f i *)
Definition is_cut (outs mid : list tid) (i : tid) : Prop :=
  forall o, In o outs ->
    p_D P o i = fold_right (fun f acc => madd (mmul RN (pnumel P i) (p_D P o f) (p_D P f i)) acc)
                           (repeat (vzeroR (pnumel P i)) (pnumel P o)) mid.

Definition cut_sum (o i : tid) (mid : list tid) : list (list R) :=
  fold_right (fun f acc => madd (mmul RN (pnumel P i) (p_D P o f) (p_D P f i)) acc)
             (repeat (vzeroR (pnumel P i)) (pnumel P o)) mid.

Lemma cut_sum_cons o i f mid :
  cut_sum o i (f :: mid) = madd (mmul RN (pnumel P i) (p_D P o f) (p_D P f i)) (cut_sum o i mid).
Proof. reflexivity. Qed.

Lemma length_cut_sum o i mid : wf_prog P -> length (cut_sum o i mid) = pnumel P o.
Proof.
  intros [Hdim _]. induction mid as [|f mid IH]; [apply repeat_length|].
  destruct (Hdim o f) as [HlD _].
  rewrite cut_sum_cons, length_madd; unfold mmul; rewrite map_length; [exact HlD|].
  rewrite IH. exact HlD.
Qed.

Lemma vjp_chain_one c o i : forall mid, wf_prog P ->
  vjp RN P mid (map (fun f => vmR (pnumel P f) c (p_D P o f)) mid) i
  = vmR (pnumel P i) c (cut_sum o i mid).
Proof.
  induction mid as [|f mid IH]; intros Hwf.
  - rewrite vjp_nil. symmetry. apply vm_zero_rows, Forall_forall.
    intros row Hrow. exact (repeat_spec _ _ _ Hrow).
  - cbn [map]. rewrite vjp_cons, IH, cut_sum_cons by exact Hwf.
    pose proof Hwf as [Hdim _].
    destruct (Hdim o f) as [HlD HMof]. destruct (Hdim f i) as [_ HMfi].
    rewrite vm_madd by (unfold mmul; rewrite map_length, length_cut_sum by exact Hwf; exact HlD).
    rewrite (vm_mmul _ _ _ _ HMfi HMof c). reflexivity.
Qed.

Lemma vjp_chain : forall outs mid i cots,
  wf_prog P -> length cots = length outs ->
  (forall j o, nth_error outs j = Some o -> length (nth j cots []) = pnumel P o) ->
  is_cut outs mid i ->
  vjp RN P mid (map (fun f => vjp RN P outs cots f) mid) i = vjp RN P outs cots i.
Proof.
  induction outs as [|o outs IH]; intros mid i cots Hwf Hlen Hl Hcut.
  - rewrite (map_ext _ _ (fun f => vjp_nil P cots f)). apply vjp_vzero_map. exact Hwf.
  - destruct cots as [|c cots]; [discriminate|].
    rewrite (map_ext _ _ (fun f => vjp_cons P o outs c cots f)).
    rewrite vjp_vadd_map.
    + rewrite vjp_chain_one by exact Hwf.
      rewrite IH.
      * rewrite vjp_cons, (Hcut o (or_introl eq_refl)). reflexivity.
      * exact Hwf.
      * exact (eq_add_S _ _ Hlen).
      * intros j o' Hj. exact (Hl (S j) o' Hj).
      * intros o' Ho'. exact (Hcut o' (or_intror Ho')).
    + exact Hwf.
    + intros f. pose proof Hwf as [Hdim _]. destruct (Hdim o f) as [_ HM].
      rewrite length_vm by exact HM. rewrite length_vjp by exact Hwf. reflexivity.
Qed.

Lemma aggregate_spec : forall ord s d d' s',
  ord <> [] -> NoDup ord ->
  (forall k, In k ord -> numel (t_trail (dget' d k)) = pnumel P k) ->
  run RN P A (TAggregate ord) s d = (Ok d', s') ->
  s' = s /\ dk d' = KGradients /\
  exists v,
    A (map (fun r => concat (map (fun k => nth r (t_rows (dget' d k)) []) ord))
           (seq 0 (nrows (dget' d (hd O ord))))) = Ok v /\
    length v = total P ord /\
    forall k, In k ord -> dget d' k = Some (plain (p_shape P k) (slice_of P ord v k)).
Proof.
  intros ord s d d' s' Hne Hnd Htr H.
  apply aggregate_inv in H; try assumption. destruct H as (-> & v & HA & Hlv & ->).
  split; [reflexivity|]. split; [reflexivity|]. exists v.
  rewrite unite_eq in HA by exact Hne. split; [exact HA|]. split; [exact Hlv|].
  intros k Hk. apply (dget_items (fun i => plain (p_shape P i) (slice_of P ord v i))). exact Hk.
Qed.
End C15R.

Print Assumptions init_ones.
Print Assumptions select_spec.
Print Assumptions diag_spec.
Print Assumptions stack_spec.
Print Assumptions grad_is_vjp.
Print Assumptions vjp_unreachable_zero.
Print Assumptions jac_rows.
Print Assumptions vjp_linear.
Print Assumptions vjp_chain.
Print Assumptions aggregate_spec.
