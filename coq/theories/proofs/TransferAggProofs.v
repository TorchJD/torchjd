(* The sqrt-free aggregator models of Agg.v commute with every map of numbers that preserves
   0, 1, +, -, *, /, unary -, <=, < and the embedding of nat; Q2R : Q -> R is such a map between
   the executable instance QN and the instance RN at which the theorems are proved.
   Each proof has the shape of the definition it follows: a [map] goes by map_map and map_ext; a
   recursion on two lists by induction on the first and cases on the second; a loop with an
   accumulator by induction with the accumulator general; a body with tests by pulling phi outward
   on the U side until both sides are phi of one term, the tests by phi_leb and phi_ltb, which read
   from U to T for that purpose. *)
From Coq Require Import List Bool Arith QArith Reals Qreals.
From TJ Require Import Num Linalg NumR NumQ Agg.
From TJ.proofs Require Import ListFacts TransferProofs.
Import ListNotations.
Local Open Scope nat_scope.

Section HomAgg.
Context {T U : Type} (NT : Num T) (NU : Num U) (phi : T -> U).
Hypothesis phi_0 : phi (n0 NT) = n0 NU.
Hypothesis phi_1 : phi (n1 NT) = n1 NU.
Hypothesis phi_add : forall a b, phi (nadd NT a b) = nadd NU (phi a) (phi b).
Hypothesis phi_sub : forall a b, phi (nsub NT a b) = nsub NU (phi a) (phi b).
Hypothesis phi_mul : forall a b, phi (nmul NT a b) = nmul NU (phi a) (phi b).
Hypothesis phi_div : forall a b, phi (ndiv NT a b) = ndiv NU (phi a) (phi b).
Hypothesis phi_opp : forall a, phi (nopp NT a) = nopp NU (phi a).
Hypothesis phi_leb : forall a b, nleb NU (phi a) (phi b) = nleb NT a b.
Hypothesis phi_ltb : forall a b, nltb NU (phi a) (phi b) = nltb NT a b.
Hypothesis phi_ofnat : forall n, phi (nofnat NT n) = nofnat NU n.

Local Notation V := (map phi).
Local Notation M := (map (map phi)).
Local Notation RV r := (match r with Ok v => Ok (V v) | Err e => Err e end).

Lemma phi_if (b : bool) (x y : T) : phi (if b then x else y) = if b then phi x else phi y.
Proof. destruct b; reflexivity. Qed.

Lemma V_if (b : bool) (x y : list T) : V (if b then x else y) = if b then V x else V y.
Proof using Type. destruct b; reflexivity. Qed.

Lemma vsum_hom v : phi (vsum NT v) = vsum NU (V v).
Proof.
  unfold vsum. induction v as [|x v IH]; cbn [map fold_right]; [exact phi_0|].
  rewrite phi_add, IH. reflexivity.
Qed.

Lemma dot_hom : forall a b, phi (dot NT a b) = dot NU (V a) (V b).
Proof.
  induction a as [|x a IH]; intros b; [exact phi_0|].
  destruct b as [|y b]; [exact phi_0|].
  cbn [dot map]. rewrite phi_add, phi_mul, IH. reflexivity.
Qed.

Lemma vscale_hom c v : V (vscale NT c v) = vscale NU (phi c) (V v).
Proof. exact (mvec_vscale NT NU phi phi_mul c v). Qed.

Lemma vadd_hom : forall a b, V (vadd NT a b) = vadd NU (V a) (V b).
Proof. exact (mvec_vadd NT NU phi phi_add). Qed.

Lemma vzero_hom n : V (vzero NT n) = vzero NU n.
Proof. exact (mvec_vzero NT NU phi phi_0 n). Qed.

Lemma vones_hom n : V (vones NT n) = vones NU n.
Proof using phi_1. exact (mvec_vones NT NU phi phi_1 n). Qed.

Lemma onehot_hom : forall n i x, V (onehot NT n i x) = onehot NU n i (phi x).
Proof. exact (mvec_onehot NT NU phi phi_0). Qed.

Lemma vm_hom n : forall w G, V (vm NT n w G) = vm NU n (V w) (M G).
Proof. exact (mvec_vm NT NU phi phi_0 phi_add phi_mul n). Qed.

Lemma ncols_hom (J : list (list T)) : ncols (M J) = ncols J.
Proof. exact (ncols_mmat phi J). Qed.

Lemma combine_rows_hom J w : V (combine_rows NT J w) = combine_rows NU (M J) (V w).
Proof. exact (TransferProofs.combine_rows_hom NT NU phi phi_0 phi_add phi_mul J w). Qed.

Lemma nth_row_hom (G : list (list T)) i : V (nth_row G i) = nth_row (M G) i.
Proof. symmetry. exact (nth_mmat phi i G). Qed.

Lemma vget_hom v i : phi (vget NT v i) = vget NU (V v) i.
Proof. symmetry. exact (nth_mvec NT NU phi phi_0 i v). Qed.

Lemma vsub_hom : forall a b, V (vsub NT a b) = vsub NU (V a) (V b).
Proof using phi_sub.
  induction a as [|x a IH]; intros b; [reflexivity|].
  destruct b as [|y b]; [reflexivity|].
  cbn [vsub map]. rewrite IH, phi_sub. reflexivity.
Qed.

Lemma mv_hom G x : V (mv NT G x) = mv NU (M G) (V x).
Proof. unfold mv. rewrite !map_map. apply map_ext. intros r. apply dot_hom. Qed.

Lemma gram_hom J : M (gram NT J) = gram NU (M J).
Proof.
  unfold gram. rewrite !map_map. apply map_ext. intros r.
  rewrite !map_map. apply map_ext. intros s. apply dot_hom.
Qed.

Lemma mget_hom G i j : phi (mget NT G i j) = mget NU (M G) i j.
Proof.
  change (phi (vget NT (nth_row G i) j) = vget NU (nth_row (M G) i) j).
  rewrite <- nth_row_hom. apply vget_hom.
Qed.

Lemma column_hom J j : V (column NT J j) = column NU (M J) j.
Proof.
  induction J as [|r J IH]; [reflexivity|].
  cbn [column map]. rewrite IH. f_equal. apply vget_hom.
Qed.

Lemma transpose_hom n J : M (transpose NT n J) = transpose NU n (M J).
Proof using phi_0. unfold transpose. rewrite map_map. apply map_ext. intros j. apply column_hom. Qed.

Lemma mmul_hom p J Q : M (mmul NT p J Q) = mmul NU p (M J) (M Q).
Proof using phi_0 phi_add phi_mul. unfold mmul. rewrite !map_map. apply map_ext. intros r. apply vm_hom. Qed.

Lemma vnorm2_hom v : phi (vnorm2 NT v) = vnorm2 NU (V v).
Proof using phi_0 phi_add phi_mul. apply dot_hom. Qed.

Lemma nabs_hom x : phi (nabs NT x) = nabs NU (phi x).
Proof.
  unfold nabs. rewrite <- phi_0, phi_ltb.
  destruct (nltb NT x (n0 NT)); [apply phi_opp | reflexivity].
Qed.

Lemma nmax_hom a b : phi (nmax NT a b) = nmax NU (phi a) (phi b).
Proof using phi_leb. unfold nmax. rewrite phi_leb. apply phi_if. Qed.

Lemma nmin_hom a b : phi (nmin NT a b) = nmin NU (phi a) (phi b).
Proof using phi_leb. unfold nmin. rewrite phi_leb. apply phi_if. Qed.

Lemma all_leb0_hom v : all_leb0 NU (V v) = all_leb0 NT v.
Proof using phi_0 phi_leb.
  unfold all_leb0. induction v as [|x v IH]; [reflexivity|].
  cbn [map forallb]. rewrite IH, <- phi_0, phi_leb. reflexivity.
Qed.

Lemma argmin_from_hom : forall v best bi i,
  argmin_from NU (phi best) bi i (V v) = argmin_from NT best bi i v.
Proof.
  induction v as [|x v IH]; intros best bi i; [reflexivity|].
  cbn [map argmin_from]. rewrite phi_ltb, !IH. reflexivity.
Qed.

Lemma argmin_hom v : argmin NU (V v) = argmin NT v.
Proof. destruct v as [|x v]; [reflexivity|]. cbn [map argmin]. apply argmin_from_hom. Qed.

Lemma mean_weights_hom m : V (mean_weights NT m) = mean_weights NU m.
Proof. unfold mean_weights. rewrite map_repeat, phi_div, phi_1, phi_ofnat. reflexivity. Qed.

Lemma sum_weights_hom m : V (sum_weights NT m) = sum_weights NU m.
Proof. exact (vones_hom m). Qed.

Lemma constant_weights_hom (w : list T) m :
  constant_weights (V w) m = RV (constant_weights w m).
Proof.
  unfold constant_weights. rewrite map_length.
  destruct (Nat.eqb (length w) m); reflexivity.
Qed.

Lemma random_weights_hom e : V (random_weights NT e) = random_weights NU (V e).
Proof.
  unfold random_weights. cbv zeta. rewrite <- vsum_hom, !map_map.
  apply map_ext. intros x. apply phi_div.
Qed.

Lemma pref_weights_hom (pref : option (list T)) default m :
  pref_weights (option_map V pref) (V default) m = RV (pref_weights pref default m).
Proof.
  destruct pref as [p|]; cbn [option_map pref_weights]; [apply constant_weights_hom | reflexivity].
Qed.

Lemma weighted_hom J (w : res (list T)) : weighted NU (M J) (RV w) = RV (weighted NT J w).
Proof.
  unfold weighted. destruct w as [w|e]; cbn [rbind]; [|reflexivity].
  rewrite combine_rows_hom. reflexivity.
Qed.

Lemma agg_mean_hom J : agg_mean NU (M J) = V (agg_mean NT J).
Proof. unfold agg_mean. rewrite combine_rows_hom, mean_weights_hom, map_length. reflexivity. Qed.

(* TransferProofs.agg_sum_hom and TransferProofs.agg_constant_hom state the next two in the
   [agg_hom] form *)
Lemma agg_sum_hom J : agg_sum NU (M J) = V (agg_sum NT J).
Proof. exact (agg_sum_mmat NT NU phi phi_0 phi_1 phi_add phi_mul J). Qed.

Lemma agg_constant_hom w J : agg_constant NU (V w) (M J) = RV (agg_constant NT w J).
Proof. exact (TransferProofs.agg_constant_hom NT NU phi phi_0 phi_add phi_mul w J). Qed.

Lemma agg_random_hom e J : agg_random NU (V e) (M J) = V (agg_random NT e J).
Proof. unfold agg_random. rewrite combine_rows_hom, random_weights_hom. reflexivity. Qed.

Lemma mscale_hom c G : M (mscale NT c G) = mscale NU (phi c) (M G).
Proof. unfold mscale. rewrite !map_map. apply map_ext. intros r. apply vscale_hom. Qed.

Lemma mzero_hom m : M (mzero NT m) = mzero NU m.
Proof. unfold mzero. rewrite map_repeat, vzero_hom. reflexivity. Qed.

Lemma normalized_gramian_hom G s norm_eps :
  M (normalized_gramian NT G s norm_eps) = normalized_gramian NU (M G) (phi s) (phi norm_eps).
Proof.
  unfold normalized_gramian. rewrite phi_ltb, map_length.
  destruct (nltb NT s norm_eps).
  - apply mzero_hom.
  - rewrite mscale_hom, phi_div, phi_mul, phi_1. reflexivity.
Qed.

Lemma add_diag_from_hom eps : forall G i,
  M (add_diag_from NT i eps G) = add_diag_from NU i (phi eps) (M G).
Proof.
  induction G as [|r G IH]; intros i; [reflexivity|].
  cbn [add_diag_from map]. rewrite IH, vadd_hom, onehot_hom, map_length. reflexivity.
Qed.

Lemma regularize_hom G eps : M (regularize NT G eps) = regularize NU (M G) (phi eps).
Proof. apply add_diag_from_hom. Qed.

Lemma reg_norm_gramian_hom G s norm_eps reg_eps :
  M (reg_norm_gramian NT G s norm_eps reg_eps)
  = reg_norm_gramian NU (M G) (phi s) (phi norm_eps) (phi reg_eps).
Proof. unfold reg_norm_gramian. rewrite regularize_hom, normalized_gramian_hom. reflexivity. Qed.

Lemma kkt_rows_hom : forall Mw w u,
  kkt_rows NU (V Mw) (V w) (V u) = kkt_rows NT Mw w u.
Proof.
  induction Mw as [|g Mw IH]; intros w u.
  - destruct w as [|x w]; [|reflexivity]. destruct u as [|y u]; reflexivity.
  - destruct w as [|x w]; [reflexivity|]. destruct u as [|y u]; [reflexivity|].
    cbn [map kkt_rows]. cbv zeta.
    rewrite IH, <- phi_sub, <- phi_mul, <- phi_0, !phi_leb. reflexivity.
Qed.

Lemma kktb_hom G u w : kktb NU (M G) (V u) (V w) = kktb NT G u w.
Proof. unfold kktb. rewrite <- mv_hom. apply kkt_rows_hom. Qed.

Lemma vsum_rows_hom n : forall W, V (vsum_rows NT n W) = vsum_rows NU n (M W).
Proof.
  induction W as [|r W IH]; cbn [vsum_rows map]; [apply vzero_hom|].
  rewrite vadd_hom, IH. reflexivity.
Qed.

Lemma pref_combination_hom (wT : list T -> list T) (wU : list U -> list U) pref J :
  (forall u, wU (V u) = V (wT u)) ->
  rbind (pref_weights (option_map V pref) (mean_weights NU (length (M J))) (length (M J)))
        (fun u => Ok (combine_rows NU (M J) (wU u)))
  = RV (rbind (pref_weights pref (mean_weights NT (length J)) (length J))
              (fun u => Ok (combine_rows NT J (wT u)))).
Proof.
  intros Hw. rewrite map_length, <- mean_weights_hom, pref_weights_hom.
  destruct (pref_weights pref (mean_weights NT (length J)) (length J)) as [u|e];
    cbn [rbind]; [|reflexivity].
  rewrite Hw, <- combine_rows_hom. reflexivity.
Qed.

Section Oracles.
Variable qpT : list (list T) -> list T -> list T.
Variable qpU : list (list U) -> list U -> list U.
Hypothesis qp_rel : forall G u, qpU (M G) (V u) = V (qpT G u).

Lemma dualproj_weights_hom G s norm_eps reg_eps u :
  dualproj_weights NU qpU (M G) (phi s) (phi norm_eps) (phi reg_eps) (V u)
  = V (dualproj_weights NT qpT G s norm_eps reg_eps u).
Proof. unfold dualproj_weights. rewrite <- reg_norm_gramian_hom. apply qp_rel. Qed.

Lemma upgrad_weights_hom G s norm_eps reg_eps u :
  upgrad_weights NU qpU (M G) (phi s) (phi norm_eps) (phi reg_eps) (V u)
  = V (upgrad_weights NT qpT G s norm_eps reg_eps u).
Proof.
  unfold upgrad_weights. cbv zeta. rewrite map_length, vsum_rows_hom, <- reg_norm_gramian_hom.
  f_equal. rewrite map_map. apply map_ext. intros i.
  rewrite <- vget_hom, <- onehot_hom. apply qp_rel.
Qed.

Lemma agg_dualproj_hom pref s norm_eps reg_eps J :
  agg_dualproj NU qpU (option_map V pref) (phi s) (phi norm_eps) (phi reg_eps) (M J)
  = RV (agg_dualproj NT qpT pref s norm_eps reg_eps J).
Proof. apply pref_combination_hom. intros u. rewrite <- gram_hom. apply dualproj_weights_hom. Qed.

Lemma agg_upgrad_hom pref s norm_eps reg_eps J :
  agg_upgrad NU qpU (option_map V pref) (phi s) (phi norm_eps) (phi reg_eps) (M J)
  = RV (agg_upgrad NT qpT pref s norm_eps reg_eps J).
Proof. apply pref_combination_hom. intros u. rewrite <- gram_hom. apply upgrad_weights_hom. Qed.
End Oracles.

Lemma mgda_step_hom G alpha :
  mgda_step NU (M G) (V alpha)
  = (V (fst (mgda_step NT G alpha)), phi (snd (mgda_step NT G alpha))).
Proof.
  unfold mgda_step. cbv zeta. cbn [fst snd].
  (* phi is pulled outward on the U side, innermost terms first; t, a, b, c and gamma are named
     as in the model to keep the goal small (pushing phi inward in one chain is slow to check) *)
  rewrite map_length, <- (mv_hom G alpha), argmin_hom.
  set (t := argmin NT (mv NT G alpha)).
  rewrite <- phi_1, <- onehot_hom, <- !mv_hom, <- !dot_hom.
  set (a := dot NT alpha (mv NT G (onehot NT (length alpha) t (n1 NT)))).
  set (b := dot NT alpha (mv NT G alpha)).
  set (c := dot NT (onehot NT (length alpha) t (n1 NT)) (mv NT G (onehot NT (length alpha) t (n1 NT)))).
  rewrite !phi_leb, <- phi_0, <- (phi_ofnat 2), <- phi_mul, <- phi_add, <- !phi_sub, <- phi_div.
  rewrite <- !phi_if.
  set (gamma := if nleb NT c a then n1 NT else _).
  rewrite <- phi_sub, <- !vscale_hom, <- vadd_hom. reflexivity.
Qed.

Lemma mgda_loop_hom : forall iters G eps alpha,
  mgda_loop NU iters (M G) (phi eps) (V alpha) = V (mgda_loop NT iters G eps alpha).
Proof.
  induction iters as [|k IH]; intros G eps alpha; [reflexivity|].
  cbn [mgda_loop]. rewrite mgda_step_hom.
  destruct (mgda_step NT G alpha) as [alpha' gamma]. cbn [fst snd].
  rewrite phi_ltb. destruct (nltb NT gamma eps); [reflexivity | apply IH].
Qed.

Lemma mgda_weights_hom G eps iters :
  mgda_weights NU (M G) (phi eps) iters = V (mgda_weights NT G eps iters).
Proof. unfold mgda_weights. rewrite map_length, <- mean_weights_hom. apply mgda_loop_hom. Qed.

Lemma agg_mgda_hom eps iters J :
  agg_mgda NU (phi eps) iters (M J) = V (agg_mgda NT eps iters J).
Proof.
  unfold agg_mgda. rewrite <- gram_hom, mgda_weights_hom, <- combine_rows_hom. reflexivity.
Qed.

Lemma vupd_hom (f : T -> T) (g : U -> U) (Hfg : forall x, phi (f x) = g (phi x)) :
  forall v j, V (vupd v j f) = vupd (V v) j g.
Proof.
  induction v as [|x v IH]; intros j; [reflexivity|].
  destruct j as [|j]; cbn [vupd map]; [rewrite Hfg; reflexivity|].
  rewrite IH. reflexivity.
Qed.

Lemma pcgrad_inner_hom G i : forall perm cw,
  V (pcgrad_inner NT G i perm cw) = pcgrad_inner NU (M G) i perm (V cw).
Proof.
  induction perm as [|j perm IH]; intros cw; [reflexivity|].
  cbn [pcgrad_inner]. destruct (Nat.eqb j i); [apply IH|]. cbv zeta.
  rewrite IH. f_equal.
  rewrite <- nth_row_hom, <- dot_hom, <- phi_0, phi_ltb.
  destruct (nltb NT (dot NT (nth_row G j) cw) (n0 NT)); [|reflexivity].
  apply vupd_hom. intros x. rewrite phi_sub, phi_div, mget_hom. reflexivity.
Qed.

Lemma pcgrad_outer_hom G m : forall perms i acc,
  V (pcgrad_outer NT G m i perms acc) = pcgrad_outer NU (M G) m i perms (V acc).
Proof.
  induction perms as [|perm perms IH]; intros i acc; [reflexivity|].
  cbn [pcgrad_outer]. cbv zeta.
  rewrite IH, vadd_hom, pcgrad_inner_hom, onehot_hom, phi_1. reflexivity.
Qed.

Lemma pcgrad_weights_hom G perms :
  V (pcgrad_weights NT G perms) = pcgrad_weights NU (M G) perms.
Proof. unfold pcgrad_weights. rewrite pcgrad_outer_hom, vzero_hom, map_length. reflexivity. Qed.

Lemma agg_pcgrad_hom perms J : agg_pcgrad NU perms (M J) = V (agg_pcgrad NT perms J).
Proof.
  unfold agg_pcgrad. rewrite combine_rows_hom, pcgrad_weights_hom, gram_hom. reflexivity.
Qed.

Lemma graddrop_coord_hom leak col u :
  phi (graddrop_coord NT leak col u) = graddrop_coord NU (V leak) (V col) (phi u).
Proof.
  unfold graddrop_coord. cbv zeta.
  rewrite vsum_hom, map_map, combine_map_both, map_map.
  rewrite <- (vsum_hom col).
  assert (Ea : vsum NU (map (nabs NU) (V col)) = phi (vsum NT (map (nabs NT) col))).
  { rewrite vsum_hom, !map_map. f_equal. apply map_ext. intros x. symmetry. apply nabs_hom. }
  rewrite Ea.
  set (s := vsum NT col). set (a := vsum NT (map (nabs NT) col)).
  rewrite <- phi_0, <- phi_1, <- (phi_ofnat 2), <- !phi_div, <- phi_add, <- phi_mul.
  rewrite !phi_leb, !phi_ltb.
  f_equal. apply map_ext. intros [l x]. cbn [fst snd].
  rewrite !phi_ltb, phi_mul, phi_add, phi_mul, phi_sub, phi_if. reflexivity.
Qed.

Lemma graddrop_map_hom leak J U0 :
  map (fun '(j, u) => graddrop_coord NU (V leak) (column NU (M J) j) u)
      (combine (seq 0 (ncols (M J))) (V U0))
  = V (map (fun '(j, u) => graddrop_coord NT leak (column NT J j) u)
           (combine (seq 0 (ncols J)) U0)).
Proof.
  rewrite ncols_hom, combine_map_r, !map_map. apply map_ext. intros [j u]. cbn [fst snd].
  rewrite graddrop_coord_hom, column_hom. reflexivity.
Qed.

Lemma agg_graddrop_hom leak U0 J :
  agg_graddrop NU (option_map V leak) (V U0) (M J) = RV (agg_graddrop NT leak U0 J).
Proof.
  unfold agg_graddrop. cbv zeta. destruct leak as [l|]; cbn [option_map].
  - rewrite !map_length. destruct (negb (Nat.eqb (length l) (length J))); [reflexivity|].
    rewrite graddrop_map_hom. reflexivity.
  - rewrite map_length, <- vzero_hom, graddrop_map_hom. reflexivity.
Qed.

Lemma insert_hom x : forall l, V (insert NT x l) = insert NU (phi x) (V l).
Proof.
  induction l as [|y l IH]; [reflexivity|].
  cbn [insert map]. rewrite phi_leb. destruct (nleb NT x y); cbn [map]; [reflexivity|].
  rewrite IH. reflexivity.
Qed.

Lemma isort_hom : forall l, V (isort NT l) = isort NU (V l).
Proof.
  induction l as [|x l IH]; [reflexivity|]. cbn [isort map]. rewrite insert_hom, IH. reflexivity.
Qed.

Lemma trimmed_hom b col : phi (trimmed NT b col) = trimmed NU b (V col).
Proof.
  unfold trimmed. cbv zeta.
  rewrite map_length, <- isort_hom, skipn_map, firstn_map, map_length.
  rewrite phi_div, vsum_hom, phi_ofnat. reflexivity.
Qed.

Lemma agg_trimmed_mean_hom b J :
  agg_trimmed_mean NU b (M J) = RV (agg_trimmed_mean NT b J).
Proof.
  unfold agg_trimmed_mean. rewrite map_length, ncols_hom.
  destruct (Nat.ltb (length J) (1 + 2 * b)); [reflexivity|].
  f_equal. rewrite map_map. apply map_ext. intros j.
  rewrite trimmed_hom, column_hom. reflexivity.
Qed.

Lemma krum_scores_hom D n_closest :
  V (krum_scores NT D n_closest) = krum_scores NU (M D) n_closest.
Proof.
  unfold krum_scores. rewrite !map_map. apply map_ext. intros row.
  rewrite vsum_hom, <- skipn_map, <- firstn_map, isort_hom. reflexivity.
Qed.

Lemma insert_idx_hom p : forall l,
  map (fun q => (phi (fst q), snd q)) (insert_idx NT p l)
  = insert_idx NU (phi (fst p), snd p) (map (fun q => (phi (fst q), snd q)) l).
Proof.
  induction l as [|q l IH]; [reflexivity|].
  cbn [insert_idx map fst snd]. rewrite phi_leb.
  destruct (nleb NT (fst p) (fst q)); cbn [map fst snd]; [reflexivity|].
  rewrite IH. reflexivity.
Qed.

Lemma sort_idx_hom v :
  sort_idx NU (V v) = map (fun q => (phi (fst q), snd q)) (sort_idx NT v).
Proof.
  unfold sort_idx. rewrite map_length. generalize (seq 0 (length v)).
  induction v as [|x v IH]; intros l; [reflexivity|].
  destruct l as [|i l]; [reflexivity|].
  cbn [map combine fold_right]. rewrite IH, insert_idx_hom. reflexivity.
Qed.

Lemma smallest_k_hom k v : smallest_k NU k (V v) = smallest_k NT k v.
Proof.
  unfold smallest_k. rewrite sort_idx_hom, firstn_map, map_map. apply map_ext.
  intros q. reflexivity.
Qed.

Lemma krum_weights_of_dist_hom D f k :
  V (krum_weights_of_dist NT D f k) = krum_weights_of_dist NU (M D) f k.
Proof using phi_0 phi_add phi_div phi_leb phi_ofnat.
  unfold krum_weights_of_dist. cbv zeta.
  rewrite map_length, <- krum_scores_hom, smallest_k_hom, map_map.
  apply map_ext. intros i. rewrite phi_div, !phi_ofnat. reflexivity.
Qed.

Lemma quadform_hom G x : phi (quadform NT G x) = quadform NU (M G) (V x).
Proof using phi_0 phi_add phi_mul. unfold quadform. rewrite dot_hom, mv_hom. reflexivity. Qed.

End HomAgg.

Lemma Q2R_QN_sub : forall a b, Q2R (nsub QN a b) = nsub RN (Q2R a) (Q2R b).
Proof. intros a b. cbn [nsub QN RN]. rewrite Q2R_Qred. apply Q2R_minus. Qed.

Lemma Q2R_QN_opp : forall a, Q2R (nopp QN a) = nopp RN (Q2R a).
Proof. intros a. cbn [nopp QN RN]. rewrite Q2R_Qred. apply Q2R_opp. Qed.

Lemma Q2R_QN_leb : forall a b, nleb RN (Q2R a) (Q2R b) = nleb QN a b.
Proof.
  intros a b. cbn [nleb QN RN]. apply eq_iff_eq_true. rewrite Rleb_true, Qle_bool_iff.
  split; [apply Rle_Qle | apply Qle_Rle].
Qed.

Lemma Q2R_QN_ltb : forall a b, nltb RN (Q2R a) (Q2R b) = nltb QN a b.
Proof.
  intros a b. change (nltb QN a b) with (negb (nleb QN b a)). rewrite <- Q2R_QN_leb. cbn [nltb nleb RN].
  destruct (Rleb (Q2R b) (Q2R a)) eqn:E; cbn [negb];
    [apply Rltb_false, Rleb_true, E | apply Rltb_true, Rleb_false, E].
Qed.

Local Notation VQ := (map Q2R).
Local Notation MQ := (map (map Q2R)).
Local Notation RQ r := (match r with Ok v => Ok (VQ v) | Err e => Err e end).

(* each instance passes the laws its general lemma uses, in the order of the hypotheses of
   Section HomAgg ([Check @kktb_hom] shows them) *)
Theorem kktb_Q_to_R : forall G u w, kktb RN (MQ G) (VQ u) (VQ w) = kktb QN G u w.
Proof. exact (kktb_hom QN RN Q2R Q2R_QN_0 Q2R_QN_add Q2R_QN_sub Q2R_QN_mul Q2R_QN_leb). Qed.

Theorem agg_mean_Q_to_R' : forall J, agg_mean RN (MQ J) = VQ (agg_mean QN J).
Proof.
  exact (agg_mean_hom QN RN Q2R Q2R_QN_0 Q2R_QN_1 Q2R_QN_add Q2R_QN_mul Q2R_QN_div Q2R_QN_ofnat).
Qed.

Theorem agg_sum_Q_to_R' : forall J, agg_sum RN (MQ J) = VQ (agg_sum QN J).
Proof. exact (agg_sum_hom QN RN Q2R Q2R_QN_0 Q2R_QN_1 Q2R_QN_add Q2R_QN_mul). Qed.

Theorem agg_constant_Q_to_R' : forall w J,
  agg_constant RN (VQ w) (MQ J) = RQ (agg_constant QN w J).
Proof. exact (agg_constant_hom QN RN Q2R Q2R_QN_0 Q2R_QN_add Q2R_QN_mul). Qed.

Theorem agg_random_Q_to_R : forall e J, agg_random RN (VQ e) (MQ J) = VQ (agg_random QN e J).
Proof. exact (agg_random_hom QN RN Q2R Q2R_QN_0 Q2R_QN_add Q2R_QN_mul Q2R_QN_div). Qed.

Theorem agg_dualproj_Q_to_R : forall qpQ qpR,
  (forall G u, qpR (MQ G) (VQ u) = VQ (qpQ G u)) ->
  forall pref s norm_eps reg_eps J,
  agg_dualproj RN qpR (option_map VQ pref) (Q2R s) (Q2R norm_eps) (Q2R reg_eps) (MQ J)
  = RQ (agg_dualproj QN qpQ pref s norm_eps reg_eps J).
Proof.
  exact (agg_dualproj_hom QN RN Q2R Q2R_QN_0 Q2R_QN_1 Q2R_QN_add Q2R_QN_mul Q2R_QN_div
           Q2R_QN_ltb Q2R_QN_ofnat).
Qed.

Theorem agg_upgrad_Q_to_R : forall qpQ qpR,
  (forall G u, qpR (MQ G) (VQ u) = VQ (qpQ G u)) ->
  forall pref s norm_eps reg_eps J,
  agg_upgrad RN qpR (option_map VQ pref) (Q2R s) (Q2R norm_eps) (Q2R reg_eps) (MQ J)
  = RQ (agg_upgrad QN qpQ pref s norm_eps reg_eps J).
Proof.
  exact (agg_upgrad_hom QN RN Q2R Q2R_QN_0 Q2R_QN_1 Q2R_QN_add Q2R_QN_mul Q2R_QN_div Q2R_QN_ltb
           Q2R_QN_ofnat).
Qed.

Theorem agg_mgda_Q_to_R : forall eps iters J,
  agg_mgda RN (Q2R eps) iters (MQ J) = VQ (agg_mgda QN eps iters J).
Proof.
  exact (agg_mgda_hom QN RN Q2R Q2R_QN_0 Q2R_QN_1 Q2R_QN_add Q2R_QN_sub Q2R_QN_mul Q2R_QN_div
           Q2R_QN_leb Q2R_QN_ltb Q2R_QN_ofnat).
Qed.

Theorem agg_pcgrad_Q_to_R : forall perms J,
  agg_pcgrad RN perms (MQ J) = VQ (agg_pcgrad QN perms J).
Proof.
  exact (agg_pcgrad_hom QN RN Q2R Q2R_QN_0 Q2R_QN_1 Q2R_QN_add Q2R_QN_sub Q2R_QN_mul Q2R_QN_div
           Q2R_QN_ltb).
Qed.

Theorem agg_graddrop_Q_to_R : forall leak U0 J,
  agg_graddrop RN (option_map VQ leak) (VQ U0) (MQ J) = RQ (agg_graddrop QN leak U0 J).
Proof.
  exact (agg_graddrop_hom QN RN Q2R Q2R_QN_0 Q2R_QN_1 Q2R_QN_add Q2R_QN_sub Q2R_QN_mul
           Q2R_QN_div Q2R_QN_opp Q2R_QN_leb Q2R_QN_ltb Q2R_QN_ofnat).
Qed.

Theorem agg_trimmed_mean_Q_to_R : forall b J,
  agg_trimmed_mean RN b (MQ J) = RQ (agg_trimmed_mean QN b J).
Proof.
  exact (agg_trimmed_mean_hom QN RN Q2R Q2R_QN_0 Q2R_QN_add Q2R_QN_div Q2R_QN_leb Q2R_QN_ofnat).
Qed.

(* the same facts in the [agg_hom] form consumed by run_Q_to_R / backward_Q_to_R / mtl_Q_to_R
   of TransferProofs.v *)
Theorem agg_mgda_agg_hom_Q_to_R : forall eps iters,
  agg_hom Q2R (fun J => Ok (agg_mgda QN eps iters J)) (fun J => Ok (agg_mgda RN (Q2R eps) iters J)).
Proof. intros eps iters. exact (agg_hom_total Q2R _ _ (agg_mgda_Q_to_R eps iters)). Qed.

Theorem agg_pcgrad_agg_hom_Q_to_R : forall perms,
  agg_hom Q2R (fun J => Ok (agg_pcgrad QN perms J)) (fun J => Ok (agg_pcgrad RN perms J)).
Proof. intros perms. exact (agg_hom_total Q2R _ _ (agg_pcgrad_Q_to_R perms)). Qed.

Theorem agg_random_agg_hom_Q_to_R : forall e,
  agg_hom Q2R (fun J => Ok (agg_random QN e J)) (fun J => Ok (agg_random RN (VQ e) J)).
Proof. intros e. exact (agg_hom_total Q2R _ _ (agg_random_Q_to_R e)). Qed.

Theorem agg_trimmed_mean_agg_hom_Q_to_R : forall b,
  agg_hom Q2R (agg_trimmed_mean QN b) (agg_trimmed_mean RN b).
Proof. exact agg_trimmed_mean_Q_to_R. Qed.

Theorem agg_graddrop_agg_hom_Q_to_R : forall leak U0,
  agg_hom Q2R (agg_graddrop QN leak U0) (agg_graddrop RN (option_map VQ leak) (VQ U0)).
Proof. exact agg_graddrop_Q_to_R. Qed.

Theorem agg_dualproj_agg_hom_Q_to_R : forall qpQ qpR,
  (forall G u, qpR (MQ G) (VQ u) = VQ (qpQ G u)) ->
  forall pref s norm_eps reg_eps,
  agg_hom Q2R (agg_dualproj QN qpQ pref s norm_eps reg_eps)
              (agg_dualproj RN qpR (option_map VQ pref) (Q2R s) (Q2R norm_eps) (Q2R reg_eps)).
Proof. exact agg_dualproj_Q_to_R. Qed.

Theorem agg_upgrad_agg_hom_Q_to_R : forall qpQ qpR,
  (forall G u, qpR (MQ G) (VQ u) = VQ (qpQ G u)) ->
  forall pref s norm_eps reg_eps,
  agg_hom Q2R (agg_upgrad QN qpQ pref s norm_eps reg_eps)
              (agg_upgrad RN qpR (option_map VQ pref) (Q2R s) (Q2R norm_eps) (Q2R reg_eps)).
Proof. exact agg_upgrad_Q_to_R. Qed.

Theorem mgda_weights_Q_to_R : forall G eps iters,
  mgda_weights RN (MQ G) (Q2R eps) iters = VQ (mgda_weights QN G eps iters).
Proof.
  exact (mgda_weights_hom QN RN Q2R Q2R_QN_0 Q2R_QN_1 Q2R_QN_add Q2R_QN_sub Q2R_QN_mul
           Q2R_QN_div Q2R_QN_leb Q2R_QN_ltb Q2R_QN_ofnat).
Qed.

Theorem pcgrad_weights_Q_to_R : forall G perms,
  VQ (pcgrad_weights QN G perms) = pcgrad_weights RN (MQ G) perms.
Proof.
  exact (pcgrad_weights_hom QN RN Q2R Q2R_QN_0 Q2R_QN_1 Q2R_QN_add Q2R_QN_sub Q2R_QN_mul
           Q2R_QN_div Q2R_QN_ltb).
Qed.

Theorem gram_Q_to_R : forall J, MQ (gram QN J) = gram RN (MQ J).
Proof. exact (gram_hom QN RN Q2R Q2R_QN_0 Q2R_QN_add Q2R_QN_mul). Qed.

Theorem reg_norm_gramian_Q_to_R : forall G s norm_eps reg_eps,
  MQ (reg_norm_gramian QN G s norm_eps reg_eps)
  = reg_norm_gramian RN (MQ G) (Q2R s) (Q2R norm_eps) (Q2R reg_eps).
Proof.
  exact (reg_norm_gramian_hom QN RN Q2R Q2R_QN_0 Q2R_QN_1 Q2R_QN_add Q2R_QN_mul Q2R_QN_div
           Q2R_QN_ltb).
Qed.

Print Assumptions argmin_hom.
Print Assumptions all_leb0_hom.
Print Assumptions mmul_hom.
Print Assumptions transpose_hom.
Print Assumptions nmax_hom.
Print Assumptions nmin_hom.
Print Assumptions vsub_hom.
Print Assumptions vones_hom.
Print Assumptions agg_sum_hom.
Print Assumptions weighted_hom.
Print Assumptions reg_norm_gramian_hom.
Print Assumptions mgda_weights_hom.
Print Assumptions pcgrad_weights_hom.
Print Assumptions upgrad_weights_hom.
Print Assumptions dualproj_weights_hom.
Print Assumptions quadform_hom.
Print Assumptions combine_rows_hom.
Print Assumptions gram_hom.
Print Assumptions kktb_hom.
Print Assumptions agg_mean_hom.
Print Assumptions agg_constant_hom.
Print Assumptions agg_random_hom.
Print Assumptions agg_dualproj_hom.
Print Assumptions agg_upgrad_hom.
Print Assumptions agg_mgda_hom.
Print Assumptions agg_pcgrad_hom.
Print Assumptions agg_graddrop_hom.
Print Assumptions agg_trimmed_mean_hom.
Print Assumptions krum_weights_of_dist_hom.
Print Assumptions Q2R_QN_div.
Print Assumptions kktb_Q_to_R.
Print Assumptions agg_random_Q_to_R.
Print Assumptions agg_dualproj_Q_to_R.
Print Assumptions agg_upgrad_Q_to_R.
Print Assumptions agg_mgda_Q_to_R.
Print Assumptions agg_pcgrad_Q_to_R.
Print Assumptions agg_graddrop_Q_to_R.
Print Assumptions agg_trimmed_mean_Q_to_R.
Print Assumptions agg_mean_Q_to_R'.
Print Assumptions agg_sum_Q_to_R'.
Print Assumptions agg_constant_Q_to_R'.
Print Assumptions agg_mgda_agg_hom_Q_to_R.
Print Assumptions agg_pcgrad_agg_hom_Q_to_R.
Print Assumptions agg_random_agg_hom_Q_to_R.
Print Assumptions agg_trimmed_mean_agg_hom_Q_to_R.
Print Assumptions agg_graddrop_agg_hom_Q_to_R.
Print Assumptions agg_dualproj_agg_hom_Q_to_R.
Print Assumptions agg_upgrad_agg_hom_Q_to_R.
Print Assumptions mgda_weights_Q_to_R.
Print Assumptions pcgrad_weights_Q_to_R.
Print Assumptions gram_Q_to_R.
Print Assumptions reg_norm_gramian_Q_to_R.
