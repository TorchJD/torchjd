(* C06HistProofs.v — histories of backward calls and user edits of .grad against the Autojac model:
   n-fold accumulation on a retained graph, and refinement of the abstract .grad accumulator. *)
From Coq Require Import Reals List Bool Arith.
From TJ Require Import Num NumR Autojac History.
From TJ.proofs Require Import AutojacBasics AutojacSpec C20Proofs C01Proofs.
Import ListNotations.

Lemma grad_val_sset : forall (s : @store R) (t0 : tid) (g : @gval R) (t : tid),
  grad_val (sset s t0 g) t = if t =? t0 then Some (g_val g) else grad_val s t.
Proof.
  intros s t0 g t. unfold grad_val, sget, sset. cbn [s_grads assoc].
  destruct (t =? t0); reflexivity.
Qed.

Lemma grad_val_sdel : forall (s : @store R) (t0 t : tid),
  grad_val (sdel s t0) t = if t =? t0 then None else grad_val s t.
Proof.
  intros s t0 t. unfold grad_val, sget, sdel. cbn [s_grads].
  rewrite (assoc_filter (fun k => negb (k =? t0))). destruct (t =? t0); reflexivity.
Qed.

(* an edit of the data of an existing .grad, as zero_() and in-place writes make it *)
Lemma grad_val_edit : forall (f : @tens R -> @tens R) (s : @store R) (t0 t : tid),
  grad_val (match sget s t0 with
            | Some g => sset s t0 (mkG (g_sid g) (f (g_val g)))
            | None => s
            end) t
  = if t =? t0 then option_map f (grad_val s t) else grad_val s t.
Proof.
  intros f s t0 t. destruct (sget s t0) as [g|] eqn:Eg.
  - rewrite grad_val_sset. destruct (Nat.eqb_spec t t0) as [->|_]; [|reflexivity].
    unfold grad_val. rewrite Eg. reflexivity.
  - destruct (Nat.eqb_spec t t0) as [->|_]; [|reflexivity].
    unfold grad_val. rewrite Eg. reflexivity.
Qed.

Section C06H.
Variable P : prog R.

(* the update a call with aggregator A deposits for input i (dummy when A rejects the Jacobian) *)
Definition update_of (A : list (list R) -> res (list R)) (tensors ord : list tid) (i : tid) : @tens R :=
  match A (jacobian P tensors ord) with
  | Ok v => plain (p_shape P i) (slice_of P ord v i)
  | Err _ => plain (p_shape P i) []
  end.

Fixpoint acc_n (n : nat) (g : option (@tens R)) (u : @tens R) : option (@tens R) :=
  match n with O => g | S n' => acc_n n' (Some (acc_val g u)) u end.

(* n identical calls on a retained graph; None as soon as one of them is not accepted *)
Fixpoint repeat_backward (A : list (list R) -> res (list R)) (n : nat) (tensors ord : list tid)
         (k : option nat) (s : @store R) : option (@store R) :=
  match n with
  | O => Some s
  | S n' => match backward_model RN P A tensors ord k true s with
            | (Ok _, s1) => repeat_backward A n' tensors ord k s1
            | (Err _, _) => None
            end
  end.

Lemma backward_accepted : forall A tensors ord k retain s d1 s1,
  wf_prog P -> ord <> [] -> (1 <= total P tensors)%nat ->
  backward_model RN P A tensors ord k retain s = (Ok d1, s1) ->
  (forall i, In i ord -> grad_val s1 i = Some (acc_val (grad_val s i) (update_of A tensors ord i))) /\
  (forall t, ~ In t ord -> sget s1 t = sget s t).
Proof.
  intros A tensors ord k retain s d1 s1 Hwf Hord Hm Eb.
  destruct (backward_deposit P A tensors ord k retain s d1 s1 Hwf Hord Hm Eb)
    as (_ & _ & v & Hv & _ & Hin & Hout).
  split; [|exact Hout]. intros i Hi. rewrite (Hin i Hi). unfold update_of. rewrite Hv. reflexivity.
Qed.

Lemma backward_n_fold : forall A n tensors ord k s s',
  wf_prog P -> ord <> [] -> (1 <= total P tensors)%nat ->
  repeat_backward A n tensors ord k s = Some s' ->
  (forall i, In i ord -> grad_val s' i = acc_n n (grad_val s i) (update_of A tensors ord i)) /\
  (forall t, ~ In t ord -> sget s' t = sget s t).
Proof.
  intros A n tensors ord k. induction n as [|n IH]; intros s s' Hwf Hord Hm Hrep;
    cbn [repeat_backward] in Hrep.
  - injection Hrep as <-. split; [intros i Hi | intros t Ht]; reflexivity.
  - destruct (backward_model RN P A tensors ord k true s) as [[d1|e] s1] eqn:Eb;
      [|discriminate Hrep].
    destruct (backward_accepted A tensors ord k true s d1 s1 Hwf Hord Hm Eb) as [Hin Hout].
    destruct (IH s1 s' Hwf Hord Hm Hrep) as [IHin IHout].
    split.
    + intros i Hi. rewrite (IHin i Hi), (Hin i Hi). reflexivity.
    + intros t Ht. rewrite (IHout t Ht). exact (Hout t Ht).
Qed.

(* ABSTRACT ACCUMULATOR: the obvious specification of what a history does to the .grad values *)
Definition gmap := tid -> option (@tens R).
Definition abs_step (g : gmap) (h : @hop R) (code : nat) : gmap :=
  match h with
  | HBackward A tensors ord k retain =>
      if (code =? 0)%nat
      then (fun t => if mem t ord then Some (acc_val (g t) (update_of A tensors ord t)) else g t)
      else g
  | HZero t0 => fun t => if (t =? t0)%nat
                         then option_map (fun v => mkTens (t_batched v) (t_trail v)
                                            (map (fun row => map (fun _ => 0%R) row) (t_rows v))) (g t)
                         else g t
  | HSetNone t0 => fun t => if (t =? t0)%nat then None else g t
  | HEdit t0 v => fun t => if (t =? t0)%nat
                           then option_map (fun w => mkTens (t_batched w) (t_trail w) [v]) (g t)
                           else g t
  | _ => g
  end.
Fixpoint abs_run (g : gmap) (hs : list (@hop R)) (codes : list nat) : gmap :=
  match hs, codes with
  | h :: hs', c :: cs => abs_run (abs_step g h c) hs' cs
  | _, _ => g
  end.

(* histories made of backward calls and user edits (mtl_backward and bare engine runs:
   C06FullHistProofs.v) whose backward calls are non-degenerate *)
Fixpoint simple_history (hs : list (@hop R)) : Prop :=
  match hs with
  | [] => True
  | HBackward _ tensors ord _ _ :: hs' => ord <> [] /\ (1 <= total P tensors)%nat /\ simple_history hs'
  | HMtl _ _ _ _ _ _ _ :: _ => False
  | HTorchGrad _ _ _ :: _ => False
  | _ :: hs' => simple_history hs'
  end.

Definition simple_op (h : @hop R) : Prop :=
  match h with
  | HBackward _ tensors ord _ _ => ord <> [] /\ (1 <= total P tensors)%nat
  | HMtl _ _ _ _ _ _ _ => False
  | HTorchGrad _ _ _ => False
  | _ => True
  end.

Lemma simple_history_cons : forall h hs,
  simple_history (h :: hs) -> simple_op h /\ simple_history hs.
Proof.
  intros h hs H. destruct h; cbn [simple_history] in H.
  - destruct H as (Hord & Hm & Hs). exact (conj (conj Hord Hm) Hs).
  - contradiction.
  - contradiction.
  - exact (conj I H).
  - exact (conj I H).
  - exact (conj I H).
Qed.

(* the accumulator acts on each tensor by itself, so the .grad values and the abstract map need
   only agree at t *)
Lemma hstep_refines : forall h s,
  wf_prog P -> simple_op h ->
  forall (g : gmap) t, grad_val s t = g t ->
  grad_val (snd (hstep RN P s h)) t = abs_step g h (fst (hstep RN P s h)) t.
Proof.
  intros h s Hwf Hh g t Hg.
  destruct h as [A tensors ord k retain|A losses features tasks shared k retain
                |outs ins retain|t0|t0|t0 v]; cbn [simple_op] in Hh; try contradiction;
    unfold hstep; cbv zeta; cbn [fst snd abs_step].
  - destruct Hh as [Hord Hm].
    destruct (backward_model RN P A tensors ord k retain s) as [[d1|e] s1] eqn:Eb; cbn [fst snd].
    + destruct (backward_accepted A tensors ord k retain s d1 s1 Hwf Hord Hm Eb) as [Hin Hout].
      cbn [code_of Nat.eqb]. rewrite <- Hg.
      destruct (mem t ord) eqn:Em.
      * apply mem_In in Em. exact (Hin t Em).
      * apply mem_false in Em. unfold grad_val. rewrite (Hout t Em). reflexivity.
    + rewrite (grad_val_grads_eq s1 s t (backward_atomic RN P A tensors ord k retain s e s1 Eb)).
      destruct e; exact Hg.
  - rewrite <- Hg. exact (grad_val_edit _ s t0 t).
  - rewrite <- Hg. apply grad_val_sdel.
  - rewrite <- Hg. exact (grad_val_edit _ s t0 t).
Qed.

Lemma history_refines_from : forall hs s (g : gmap) t,
  wf_prog P -> simple_history hs -> grad_val s t = g t ->
  grad_val (snd (hrun RN P s hs)) t = abs_run g hs (fst (hrun RN P s hs)) t.
Proof.
  intros hs. induction hs as [|h hs IH]; intros s g t Hwf Hs Hg.
  - exact Hg.
  - apply simple_history_cons in Hs. destruct Hs as [Hh Hs].
    cbn [hrun]. cbv zeta. cbn [fst snd abs_run].
    apply (IH _ _ t Hwf Hs). exact (hstep_refines h s Hwf Hh g t Hg).
Qed.

(* REFINEMENT: for every history, the .grad values of the concrete store equal those of the
   abstract accumulator (requested inputs: g <- g (+) update; a rejected call: unchanged;
   everything else: unchanged) *)
Lemma history_refines_accumulator : forall hs s,
  wf_prog P -> simple_history hs ->
  forall t, grad_val (snd (hrun RN P s hs)) t = abs_run (grad_val s) hs (fst (hrun RN P s hs)) t.
Proof. intros hs s Hwf Hs t. exact (history_refines_from hs s (grad_val s) t Hwf Hs eq_refl). Qed.
End C06H.

Print Assumptions backward_n_fold.
Print Assumptions history_refines_accumulator.
