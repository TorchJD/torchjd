(* The aggregators under operations on the rows of J: row i scaled by c_i (a fixed weighting is
   linear in c), the rows permuted, all rows zero; and the equations through which the other files
   read IMTL-G's weights and ConFIG. *)
From Coq Require Import Reals List Lia Lra Permutation.
From TJ Require Import Num Linalg NumR Agg.
From TJ.proofs Require Import LinalgR C16Proofs C08Proofs.
Import ListNotations.
Local Open Scope R_scope.

(* diag(c) J *)
Definition scale_rows (c : list R) (J : list (list R)) : list (list R) :=
  map (fun '(ci, r) => vscaleR ci r) (List.combine c J).
Definition vmul (a b : list R) : list R := map (fun '(x, y) => x * y) (List.combine a b).

Lemma vm_scale_rows n : forall w c J, length w = length J -> length c = length J ->
  vmR n w (scale_rows c J) = vmR n (vmul w c) J.
Proof.
  intros w c J; revert w c; induction J as [|r J IH]; intros [|x w] [|ci c] Hw Hc; cbn in Hw, Hc;
    try lia; try reflexivity.
  unfold scale_rows, vmul. cbn [List.combine map vm]. fold (scale_rows c J) (vmul w c).
  rewrite IH by lia. rewrite vscale_vscale. reflexivity.
Qed.

Lemma length_vmul a b : length a = length b -> length (vmul a b) = length a.
Proof. intros H. unfold vmul. rewrite map_length, combine_length. lia. Qed.

Lemma vmul_cons x w y c : vmul (x :: w) (y :: c) = x * y :: vmul w c.
Proof. reflexivity. Qed.

Lemma vmul_vscale w a c : vmul w (vscaleR a c) = vscaleR a (vmul w c).
Proof.
  revert c; induction w as [|x w IH]; intros [|y c]; try reflexivity.
  rewrite vscale_cons, !vmul_cons, vscale_cons, IH. rn. f_equal. ring.
Qed.

Lemma vmul_vadd w c1 c2 : vmul w (vaddR c1 c2) = vaddR (vmul w c1) (vmul w c2).
Proof.
  revert c1 c2; induction w as [|x w IH]; intros [|y1 c1] [|y2 c2]; try reflexivity.
  cbn [vadd]. rewrite !vmul_cons. cbn [vadd]. rewrite IH. rn. f_equal. ring.
Qed.

Lemma wfmat_scale_rows n c J : wfmat n J -> wfmat n (scale_rows c J).
Proof.
  intros HJ. revert c. induction HJ as [|r J Hr HJ IH]; intros [|ci c]; try constructor.
  - rewrite length_vscale. exact Hr.
  - apply IH.
Qed.

Lemma combine_scale_rows n J w c : wfmat n J -> J <> [] -> length w = length J ->
  length c = length J -> combineR (scale_rows c J) w = vmR n (vmul w c) J.
Proof.
  intros HJ Hne Hw Hc. rewrite <- vm_scale_rows by assumption.
  apply combine_wf; [apply wfmat_scale_rows; exact HJ|].
  destruct J, c; cbn in Hc; congruence || discriminate.
Qed.

(* A(diag(a c1 + b c2) J) = a A(diag(c1) J) + b A(diag(c2) J) for every FIXED weight vector w
   (Mean, Sum, Constant, Random under a fixed draw) — all c, not only positive ones *)
Theorem fixed_weights_linear n J w a c1 b c2 : wfmat n J -> J <> [] ->
  length w = length J -> length c1 = length J -> length c2 = length J ->
  combineR (scale_rows (vaddR (vscaleR a c1) (vscaleR b c2)) J) w =
  vaddR (vscaleR a (combineR (scale_rows c1 J) w)) (vscaleR b (combineR (scale_rows c2 J) w)).
Proof.
  intros HJ Hne Hw H1 H2.
  rewrite !(combine_scale_rows n)
    by (auto; rewrite length_vadd; rewrite !length_vscale; congruence).
  rewrite vmul_vadd, !vmul_vscale.
  rewrite vm_vadd by (rewrite !length_vscale, !length_vmul; congruence).
  rewrite !vm_vscale. reflexivity.
Qed.

(* w J as a sum over the (weight, row) pairs, in any order *)
Fixpoint vmp (n : nat) (l : list (R * list R)) : list R :=
  match l with
  | [] => vzeroR n
  | (x, r) :: l' => vaddR (vscaleR x r) (vmp n l')
  end.

Lemma vm_vmp n : forall w J, length w = length J -> vmR n w J = vmp n (List.combine w J).
Proof.
  induction w as [|x w IH]; intros [|r J] H; cbn in H; try lia; [reflexivity|].
  cbn [vm List.combine vmp]. rewrite IH by lia. reflexivity.
Qed.

Lemma vmp_perm n l l' : Permutation l l' -> vmp n l = vmp n l'.
Proof.
  induction 1 as [|[x r] l l' Hp IH|[x r] [y s] l|l l' l'' H1 IH1 H2 IH2]; cbn [vmp].
  - reflexivity.
  - rewrite IH. reflexivity.
  - apply vadd_swap.
  - congruence.
Qed.

Theorem perm_meta n J J' w w' : wfmat n J -> J <> [] -> length w = length J -> length w' = length J' ->
  Permutation (List.combine w J) (List.combine w' J') ->
  combineR J w = combineR J' w'.
Proof.
  intros HJ Hne Hw Hw' Hp. unfold combine_rows.
  (* the first row of J' is a row of J *)
  assert (HJ' : ncols J' = n).
  { destruct J' as [|r' J'], w' as [|x' w']; cbn in Hw'; try lia.
    - apply Permutation_sym, Permutation_nil in Hp. destruct J, w; cbn in Hw, Hp; congruence.
    - apply (wfmat_In n J); [exact HJ|]. apply (in_combine_r w J x').
      apply (Permutation_in _ (Permutation_sym Hp)). left. reflexivity. }
  rewrite (ncols_wf n J), HJ' by assumption.
  rewrite !vm_vmp by assumption. apply vmp_perm. exact Hp.
Qed.

Lemma combine_repeat {A} (x : R) (J : list A) : List.combine (repeat x (length J)) J = map (pair x) J.
Proof. induction J as [|r J IH]; [reflexivity|]. cbn. f_equal. exact IH. Qed.

Theorem mean_sum_perm n J J' : wfmat n J -> J <> [] -> Permutation J J' ->
  agg_mean RN J = agg_mean RN J' /\ agg_sum RN J = agg_sum RN J'.
Proof.
  intros HJ Hne Hp. pose proof (Permutation_length Hp) as Hl.
  assert (E : forall x, combineR J (repeat x (length J)) = combineR J' (repeat x (length J'))).
  { intros x. apply (perm_meta n); auto; try apply repeat_length.
    rewrite !combine_repeat. apply Permutation_map. exact Hp. }
  unfold agg_mean, agg_sum, mean_weights, sum_weights. split; [|apply E].
  rewrite E. rewrite Hl. reflexivity.
Qed.

Lemma column_perm J J' j : Permutation J J' -> Permutation (column RN J j) (column RN J' j).
Proof.
  induction 1 as [|r l l' Hp IH|r s l|l l' l'' H1 IH1 H2 IH2]; cbn [column].
  - constructor.
  - constructor. exact IH.
  - apply perm_swap.
  - exact (Permutation_trans IH1 IH2).
Qed.

Theorem trimmed_mean_perm n b J J' : wfmat n J -> J <> [] -> Permutation J J' ->
  agg_trimmed_mean RN b J = agg_trimmed_mean RN b J'.
Proof.
  intros HJ Hne Hp. unfold agg_trimmed_mean. rewrite <- (Permutation_length Hp).
  destruct (length J <? 1 + 2 * b)%nat; [reflexivity|].
  assert (HJ' : wfmat n J') by exact (Permutation_Forall Hp HJ).
  assert (Hne' : J' <> []).
  { intros E. subst J'. apply Permutation_length in Hp. destruct J; [congruence|discriminate]. }
  rewrite (ncols_wf n J), (ncols_wf n J') by assumption.
  f_equal. apply map_ext. intros j. unfold trimmed.
  rewrite (sorted_perm_eq (isort RN (column RN J j)) (isort RN (column RN J' j))).
  - rewrite (Permutation_length (column_perm J J' j Hp)). reflexivity.
  - apply isort_sorted.
  - apply isort_sorted.
  - rewrite !isort_perm. apply column_perm. exact Hp.
Qed.

(* IMTL-G's weights: with d_i = sqrt G_ii and v = P d, the vector v / sum v unless the guard fires *)
Lemma imtlg_weights_eq P G thr :
  let d := map (fun i => sqrt (mget RN G i i)) (seq 0 (length G)) in
  let v := mvR P d in
  imtlg_weights RN P G thr =
  if Rltb (nabs RN (vsumR v) * vsumR d) thr then vzeroR (length v) else vscaleR (1 / vsumR v) v.
Proof. intros d v. unfold imtlg_weights. rn. fold d v. rewrite map_div_vscale. reflexivity. Qed.

Lemma length_imtlg_weights P G thr : length (imtlg_weights RN P G thr) = length P.
Proof.
  rewrite imtlg_weights_eq. cbv zeta.
  destruct (Rltb _ _); rewrite ?length_vzero, ?length_vscale; apply length_mv.
Qed.

Theorem imtlg_equal_projections n J P thr : wfmat n J -> J <> [] -> length P = length J ->
  (* pinv contract for an invertible Gramian: G P = I *)
  (forall x, length x = length J -> mvR (gramR J) (mvR P x) = x) ->
  let G := gramR J in
  let d := map (fun i => sqrt (mget RN G i i)) (seq 0 (length G)) in
  let sigma := vsumR (mvR P d) in
  nltb RN (nabs RN sigma * vsumR d) thr = false -> sigma <> 0 ->
  let w := imtlg_weights RN P G thr in
  vsumR w = 1 /\
  forall i, (i < length J)%nat -> nth i (mvR J (agg_imtlg RN P thr J)) 0 = nth i d 0 / sigma.
Proof.
  intros HJ Hne HlP HP G d sigma Hguard Hs w.
  assert (Hw : w = vscaleR (1 / sigma) (mvR P d)).
  { unfold w. rewrite imtlg_weights_eq. cbv zeta. fold d sigma. rn. rewrite Hguard. reflexivity. }
  assert (Hld : length d = length J) by (unfold d; rewrite map_length, seq_length; apply length_gram).
  split.
  - rewrite Hw, vsum_vscale. fold sigma. field. exact Hs.
  - intros i Hi. unfold agg_imtlg. fold G w. rewrite (combine_wf n) by assumption.
    rewrite <- (mv_gram n) by (try assumption; rewrite Hw, length_vscale, length_mv; exact HlP).
    fold G. rewrite Hw, mv_vscale. unfold G.
    rewrite HP by exact Hld. rewrite nth_vscale. unfold Rdiv. ring.
Qed.

Theorem weighted_zero_matrix m n w : vmR n w (repeat (vzeroR n) m) = vzeroR n.
Proof.
  revert w. induction m as [|m IH]; intros w; [destruct w; reflexivity|].
  destruct w as [|x w]; [reflexivity|]. cbn [repeat vm]. rewrite IH, vscale_vzero.
  apply vadd_vzero_vzero.
Qed.

(* ConFIG's "unit vector with guard"; agg_config is read through it everywhere *)
Definition cunit (r : list R) : list R :=
  if Rleb (sqrt (dotR r r)) 0 then vzeroR (length r) else vscaleR (1 / sqrt (dotR r r)) r.

Lemma config_units_cunit J : config_units RN J = map cunit J.
Proof. reflexivity. Qed.

Lemma agg_config_cunit B pref J :
  agg_config RN B pref J =
  rbind (pref_weights pref (sum_weights RN (length J)) (length J)) (fun w =>
    Ok (vscaleR (vsumR (map (fun g => dotR g (cunit (mvR B w))) J)) (cunit (mvR B w)))).
Proof. reflexivity. Qed.

Lemma length_cunit r : length (cunit r) = length r.
Proof.
  unfold cunit. destruct (Rleb (sqrt (dotR r r)) 0); [apply length_vzero | apply length_vscale].
Qed.

Lemma cunit_nonzero r : 0 < dotR r r -> cunit r = vscaleR (1 / sqrt (dotR r r)) r.
Proof.
  intros Hr. unfold cunit. pose proof (sqrt_lt_R0 _ Hr) as Hs.
  destruct (Rleb (sqrt (dotR r r)) 0) eqn:E; [apply Rleb_true in E; lra | reflexivity].
Qed.

Lemma cunit_vscale x r : 0 < x -> cunit (vscaleR x r) = cunit r.
Proof.
  intros Hx. unfold cunit.
  replace (sqrt (dotR (vscaleR x r) (vscaleR x r))) with (x * sqrt (dotR r r))
    by (symmetry; apply (vnorm_vscale x r); lra).
  rewrite length_vscale, Rleb_scale_0r by exact Hx.
  destruct (Rleb (sqrt (dotR r r)) 0); [reflexivity|].
  rewrite vscale_vscale, div_scale_cancel by lra. reflexivity.
Qed.

Lemma cunit_vm n p Q r : orth n p Q -> length r = n -> cunit (vmR p r Q) = vmR p (cunit r) Q.
Proof.
  intros Ho Hr. pose proof Ho as (HQ & _). unfold cunit.
  rewrite (dot_mmul n p Q r r Ho Hr Hr). rewrite (length_vm p r Q HQ).
  destruct (Rleb (sqrt (dotR r r)) 0).
  - symmetry. apply vm_vzero_any. exact HQ.
  - symmetry. apply vm_vscale.
Qed.

(* ConFIG on an all-zero matrix: zero vector of the length of the oracle's answer *)
Theorem config_zero_matrix B pref m n v :
  agg_config RN B pref (repeat (vzeroR n) m) = Ok v -> Forall (fun x => x = 0) v.
Proof.
  rewrite agg_config_cunit.
  destruct (pref_weights pref _ _) as [w|e]; cbn [rbind]; [|discriminate].
  intros H. injection H as <-. set (u := cunit (mvR B w)).
  assert (E : vsumR (map (fun g => dotR g u) (repeat (vzeroR n) m)) = 0).
  { clear. induction m as [|m IH]; [reflexivity|]. cbn [repeat map]. rewrite vsum_cons, IH, dot_vzero_l. lra. }
  rewrite E. rewrite vscale_zero. apply Forall_forall. intros x Hx.
  apply repeat_spec in Hx. exact Hx.
Qed.
