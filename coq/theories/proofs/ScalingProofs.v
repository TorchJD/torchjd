(* The row scaling  rscale c J = diag(c) J  and, for positive c (allpos), C09:
   PCGrad(diag(c) J) has a closed form (pc_lin) that is linear in c; ConFIG(diag(c) J) is
   <c, J u> u for a unit direction u that does not depend on c.
   Then, unrelated to scalings, C16: a Krum score is the sum of the n_closest smallest distances to
   the other points (remove_nth drops the distance of a point to itself). *)
From Coq Require Import Reals List Lia Lra Permutation.
From TJ Require Import Num Linalg NumR Agg.
From TJ.proofs Require Import LinalgR C18Proofs C16Proofs C10Proofs.
Import ListNotations.
Local Open Scope R_scope.

Definition rscale (c : list R) (J : list (list R)) : list (list R) :=
  map (fun '(ci, r) => vscaleR ci r) (List.combine c J).

Definition allpos (c : list R) : Prop := Forall (fun x => 0 < x) c.

Lemma rscale_scale_rows : rscale = scale_rows.
Proof. reflexivity. Qed.

Lemma rscale_cons x c r J : rscale (x :: c) (r :: J) = vscaleR x r :: rscale c J.
Proof. reflexivity. Qed.

Lemma length_rscale c J : length c = length J -> length (rscale c J) = length J.
Proof. intros H. unfold rscale. rewrite map_length, combine_length. lia. Qed.

Lemma nth_rscale : forall J c j, length c = length J ->
  nth j (rscale c J) [] = vscaleR (nth j c 0) (nth j J []).
Proof.
  induction J as [|r J IH]; intros [|x c] j H; cbn in H; try lia.
  - destruct j; reflexivity.
  - rewrite rscale_cons. destruct j as [|j]; [reflexivity|]. apply IH. lia.
Qed.

Lemma wfmat_rscale n c J : wfmat n J -> wfmat n (rscale c J).
Proof. rewrite rscale_scale_rows. apply wfmat_scale_rows. Qed.

Lemma rscale_nonempty c J : length c = length J -> J <> [] -> rscale c J <> [].
Proof.
  intros Hl Hne. apply (nonnil_same_length _ J); [apply length_rscale; exact Hl | exact Hne].
Qed.

Lemma allpos_nth c i : allpos c -> (i < length c)%nat -> 0 < nth i c 0.
Proof. intros Hc Hi. exact (proj1 (Forall_nth _ c) Hc i 0 Hi). Qed.

Lemma allpos_comb a b : 0 < a -> 0 < b -> forall c1 c2, allpos c1 -> allpos c2 ->
  allpos (vaddR (vscaleR a c1) (vscaleR b c2)).
Proof.
  intros Ha Hb. induction c1 as [|x c1 IH]; intros [|y c2] H1 H2; try constructor;
    apply Forall_cons_iff in H1, H2.
  - rn. apply Rplus_lt_0_compat; apply Rmult_lt_0_compat; tauto.
  - apply IH; tauto.
Qed.

(* the coefficient of the subtracted projection sees the factor t of g only *)
Lemma proj_coef_scale t k ip d : k <> 0 -> t * (k * ip) / (k * (k * d)) * k = t * (ip / d).
Proof.
  intros Hk. rewrite div_scale_cancel by exact Hk.
  replace (t * (k * ip)) with (k * (t * ip)) by ring. rewrite div_scale by exact Hk.
  unfold Rdiv. ring.
Qed.

(* the projection sequence commutes with positive row scaling:
   the conflict tests are invariant and every subtracted projection is unchanged *)
Theorem pc_vec_rscale J c i t : length c = length J -> allpos c -> 0 < t ->
  forall perm g, pc_vec (rscale c J) i perm (vscaleR t g) = vscaleR t (pc_vec J i perm g).
Proof.
  intros Hl Hc Ht. induction perm as [|j perm IH]; intros g; [reflexivity|].
  cbn [pc_vec]. destruct (j =? i)%nat; [apply IH|]. cbv zeta.
  rewrite nth_rscale by exact Hl.
  destruct (Nat.lt_ge_cases j (length J)) as [Hj|Hj].
  - assert (Hcj : 0 < nth j c 0) by (apply allpos_nth; [exact Hc|lia]).
    rewrite !dot_vscale_l, !dot_vscale_r, !Rltb_scale_0r by assumption.
    destruct (Rltb (dotR g (nth j J [])) 0); [|apply IH].
    rewrite vscale_vscale, proj_coef_scale by lra.
    rewrite <- vscale_vscale, <- vscale_vsub. apply IH.
  - rewrite (nth_overflow J) by exact Hj. cbn [vscale map]. rewrite !dot_nil_r.
    assert (E : Rltb 0 0 = false) by (apply Rltb_false; lra). rewrite E. apply IH.
Qed.

(* sum_i c_i * pc_vec J i perm_i g_i, accumulated in the order of the code *)
Fixpoint pc_lin (c : list R) (J : list (list R)) (i : nat) (perms : list (list nat))
         (acc : list R) : list R :=
  match perms with
  | [] => acc
  | perm :: ps =>
      pc_lin c J (S i) ps (vaddR acc (vscaleR (nth i c 0) (pc_vec J i perm (nth i J []))))
  end.

Lemma pc_outer_vec_rscale J c : length c = length J -> allpos c ->
  forall perms i acc, (i + length perms <= length J)%nat ->
  pc_outer_vec (rscale c J) i perms acc = pc_lin c J i perms acc.
Proof.
  intros Hl Hc. induction perms as [|perm ps IH]; intros i acc Hi; [reflexivity|].
  cbn [length] in Hi. cbn [pc_outer_vec pc_lin].
  rewrite nth_rscale by exact Hl.
  rewrite pc_vec_rscale; [|exact Hl|exact Hc|apply allpos_nth; [exact Hc|lia]].
  apply IH. lia.
Qed.

Theorem pcgrad_rscale_formula n J perms c : wfmat n J -> J <> [] ->
  (length perms <= length J)%nat ->
  Forall (Forall (fun j => (j < length J)%nat)) perms ->
  length c = length J -> allpos c ->
  agg_pcgrad RN perms (rscale c J) = pc_lin c J 0 perms (vzeroR n).
Proof.
  intros HJ Hne Hlp Hp Hl Hc.
  rewrite (pcgrad_spec n).
  - apply pc_outer_vec_rscale; [exact Hl|exact Hc|lia].
  - apply wfmat_rscale. exact HJ.
  - apply rscale_nonempty; assumption.
  - rewrite length_rscale by exact Hl. exact Hlp.
  - rewrite length_rscale by exact Hl. exact Hp.
Qed.

Lemma length_pc_vec n J i : wfmat n J -> forall perm g, length g = n ->
  length (pc_vec J i perm g) = n.
Proof.
  intros HJ. induction perm as [|j perm IH]; intros g Hg; [exact Hg|].
  cbn [pc_vec]. destruct (j =? i)%nat; [apply IH; exact Hg|]. cbv zeta.
  destruct (Rltb (dotR g (nth j J [])) 0) eqn:E; [|apply IH; exact Hg].
  apply IH. apply Rltb_true in E.
  destruct (nth_in_or_default j J []) as [Hin|Hd].
  - pose proof (wfmat_In n J _ HJ Hin) as Hj.
    rewrite length_vsub; [exact Hg|]. rewrite length_vscale. congruence.
  - rewrite Hd, dot_nil_r in E. lra.
Qed.

Lemma comb_step a b x y P A1 A2 :
  vaddR (vaddR (vscaleR a A1) (vscaleR b A2)) (vscaleR (a * x + b * y) P) =
  vaddR (vscaleR a (vaddR A1 (vscaleR x P))) (vscaleR b (vaddR A2 (vscaleR y P))).
Proof.
  rewrite vadd_comm, (vadd_comm A1), (vadd_comm A2).
  rewrite !vscale_vadd, !vscale_vscale. apply vadd_vscale_distr.
Qed.

(* no sign condition on c is needed here *)
Lemma pc_lin_linear n J a b c1 c2 : wfmat n J -> length c1 = length J -> length c2 = length J ->
  forall perms i acc1 acc2, length acc1 = n -> length acc2 = n ->
  (i + length perms <= length J)%nat ->
  pc_lin (vaddR (vscaleR a c1) (vscaleR b c2)) J i perms (vaddR (vscaleR a acc1) (vscaleR b acc2)) =
  vaddR (vscaleR a (pc_lin c1 J i perms acc1)) (vscaleR b (pc_lin c2 J i perms acc2)).
Proof.
  intros HJ H1 H2. induction perms as [|perm ps IH]; intros i acc1 acc2 Ha1 Ha2 Hi; [reflexivity|].
  cbn [length] in Hi. cbn [pc_lin].
  rewrite nth_vadd by (rewrite !length_vscale, H1, H2; reflexivity). rewrite !nth_vscale.
  assert (Hgi : length (nth i J []) = n).
  { apply wfmat_nth; [exact HJ | lia]. }
  assert (HP : length (pc_vec J i perm (nth i J [])) = n) by (apply (length_pc_vec n); assumption).
  rewrite comb_step.
  apply IH; [| |lia]; (rewrite length_vadd; [assumption | rewrite length_vscale, HP; assumption]).
Qed.

(* C09 for PCGrad, every fixed schedule: c |-> PCGrad(diag(c) J) is linear on positive vectors *)
Theorem pcgrad_linear_under_scaling_gen n J perms a b c1 c2 : wfmat n J -> J <> [] ->
  (length perms <= length J)%nat ->
  Forall (Forall (fun j => (j < length J)%nat)) perms ->
  length c1 = length J -> length c2 = length J ->
  allpos c1 -> allpos c2 -> allpos (vaddR (vscaleR a c1) (vscaleR b c2)) ->
  agg_pcgrad RN perms (rscale (vaddR (vscaleR a c1) (vscaleR b c2)) J) =
  vaddR (vscaleR a (agg_pcgrad RN perms (rscale c1 J)))
        (vscaleR b (agg_pcgrad RN perms (rscale c2 J))).
Proof.
  intros HJ Hne Hlp Hp H1 H2 P1 P2 P12.
  rewrite !(pcgrad_rscale_formula n) by (try assumption; rewrite length_lincomb; congruence).
  rewrite <- (pc_lin_linear n) by (try assumption; apply length_vzero).
  rewrite !vscale_vzero, vadd_vzero_vzero. reflexivity.
Qed.

Theorem pcgrad_linear_under_scaling n J perms a b c1 c2 : wfmat n J -> J <> [] ->
  (length perms <= length J)%nat ->
  Forall (Forall (fun j => (j < length J)%nat)) perms ->
  length c1 = length J -> length c2 = length J ->
  allpos c1 -> allpos c2 -> 0 < a -> 0 < b ->
  agg_pcgrad RN perms (rscale (vaddR (vscaleR a c1) (vscaleR b c2)) J) =
  vaddR (vscaleR a (agg_pcgrad RN perms (rscale c1 J)))
        (vscaleR b (agg_pcgrad RN perms (rscale c2 J))).
Proof.
  intros HJ Hne Hlp Hp H1 H2 P1 P2 Ha Hb.
  apply (pcgrad_linear_under_scaling_gen n); try assumption. apply allpos_comb; assumption.
Qed.

Theorem config_units_rscale : forall J c, length c = length J -> allpos c ->
  config_units RN (rscale c J) = config_units RN J.
Proof.
  intros J c. rewrite !config_units_cunit. revert c.
  induction J as [|r J IH]; intros [|x c] Hl Hc; cbn in Hl; try lia; [reflexivity|].
  apply Forall_cons_iff in Hc. destruct Hc as [Hx Hc].
  rewrite rscale_cons. cbn [map]. rewrite cunit_vscale by exact Hx. f_equal. apply IH; [lia | exact Hc].
Qed.

Lemma vsum_dot_rscale u : forall J c, length c = length J ->
  vsumR (map (fun g => dotR g u) (rscale c J)) = dotR c (mvR J u).
Proof.
  induction J as [|r J IH]; intros [|x c] Hl; cbn in Hl; try lia; [reflexivity|].
  rewrite rscale_cons. cbn [map mv]. fold (mvR J u).
  rewrite vsum_cons, dot_cons, dot_vscale_l, IH by lia. reflexivity.
Qed.

(* for a fixed oracle answer B, ConFIG(diag(c) J) = (sum_i c_i <g_i, u>) u  with the unit direction
   u = cunit (B w), which depends on the oracle answer and the preference only *)
Theorem agg_config_rscale B pref c J : length c = length J ->
  agg_config RN B pref (rscale c J) =
  rbind (pref_weights pref (sum_weights RN (length J)) (length J)) (fun w =>
    Ok (vscaleR (dotR c (mvR J (cunit (mvR B w)))) (cunit (mvR B w)))).
Proof.
  intros Hl. rewrite agg_config_cunit, length_rscale by exact Hl.
  destruct (pref_weights pref (sum_weights RN (length J)) (length J)) as [w|e]; [|reflexivity].
  cbn [rbind]. rewrite vsum_dot_rscale by exact Hl. reflexivity.
Qed.

(* C09 for ConFIG (same oracle answer B, justified by config_units_rscale) *)
Theorem config_linear_under_scaling B pref a b c1 c2 J w :
  length c1 = length J -> length c2 = length J ->
  pref_weights pref (sum_weights RN (length J)) (length J) = Ok w ->
  exists v1 v2,
    agg_config RN B pref (rscale c1 J) = Ok v1 /\
    agg_config RN B pref (rscale c2 J) = Ok v2 /\
    agg_config RN B pref (rscale (vaddR (vscaleR a c1) (vscaleR b c2)) J) =
      Ok (vaddR (vscaleR a v1) (vscaleR b v2)).
Proof.
  intros H1 H2 Hw.
  rewrite !agg_config_rscale by (try assumption; rewrite length_lincomb; congruence).
  rewrite Hw. cbn [rbind]. set (u := cunit (mvR B w)).
  eexists. eexists. split; [reflexivity|]. split; [reflexivity|]. f_equal.
  rewrite dot_vadd_l by (rewrite !length_vscale; congruence).
  rewrite !dot_vscale_l, !vscale_vscale, <- vscale_plus. reflexivity.
Qed.

(* the error case: the result does not depend on c at all *)
Theorem config_rscale_err B pref c J e : length c = length J ->
  pref_weights pref (sum_weights RN (length J)) (length J) = Err e ->
  agg_config RN B pref (rscale c J) = Err e.
Proof. intros Hl He. rewrite agg_config_rscale by exact Hl. rewrite He. reflexivity. Qed.

Definition remove_nth {A} (i : nat) (l : list A) : list A := firstn i l ++ skipn (S i) l.

Lemma length_remove_nth (l : list R) i : (i < length l)%nat ->
  length (remove_nth i l) = (length l - 1)%nat.
Proof.
  intros Hi. unfold remove_nth. rewrite app_length, firstn_length, skipn_length. lia.
Qed.

Lemma remove_nth_map {A B} (f : A -> B) i l : remove_nth i (map f l) = map f (remove_nth i l).
Proof. unfold remove_nth. rewrite firstn_map, skipn_map, map_app. reflexivity. Qed.

Lemma remove_nth_seq : forall i s m, (i < m)%nat ->
  remove_nth i (seq s m) = seq s i ++ seq (s + S i) (m - S i).
Proof.
  unfold remove_nth. induction i as [|i IH]; intros s m H.
  - destruct m as [|m]; [lia|]. cbn [seq firstn skipn app]. f_equal; lia.
  - destruct m as [|m]; [lia|]. cbn [seq firstn skipn app]. f_equal.
    rewrite IH by lia. f_equal. f_equal; lia.
Qed.

Lemma isort_min_middle x A B : Forall (Rle x) (A ++ B) -> isortR (A ++ x :: B) = x :: isortR (A ++ B).
Proof.
  intros H. apply sorted_perm_eq.
  - apply isort_sorted.
  - constructor; [apply isort_sorted|].
    eapply Permutation_Forall; [symmetry; apply isort_perm | exact H].
  - apply Permutation_trans with (A ++ x :: B); [apply isort_perm|].
    apply Permutation_sym, Permutation_trans with (x :: A ++ B);
      [constructor; apply isort_perm | apply Permutation_middle].
Qed.

Lemma isort_remove_min row i : (i < length row)%nat -> Forall (Rle (nth i row 0)) row ->
  isortR row = nth i row 0 :: isortR (remove_nth i row).
Proof.
  intros Hi Hmin. pose proof (nth_split_at 0 row i Hi) as E. unfold remove_nth.
  set (x := nth i row 0) in *. set (A := firstn i row) in *. set (B := skipn (S i) row) in *.
  rewrite E in Hmin. rewrite E. apply isort_min_middle.
  apply Forall_app in Hmin. destruct Hmin as [HA HB]. apply Forall_cons_iff in HB.
  apply Forall_app. tauto.
Qed.

Lemma skipn1_firstn {A} k (l : list A) : skipn 1 (firstn (k + 1) l) = firstn k (tl l).
Proof.
  replace (k + 1)%nat with (S k) by lia. destruct l as [|x l]; [destruct k; reflexivity|reflexivity].
Qed.

Theorem krum_score_row row i nc : (i < length row)%nat -> Forall (Rle (nth i row 0)) row ->
  vsumR (skipn 1 (firstn (nc + 1) (isortR row))) = vsumR (firstn nc (isortR (remove_nth i row))).
Proof.
  intros Hi Hmin. rewrite skipn1_firstn, (isort_remove_min row i) by assumption. reflexivity.
Qed.

(* C16: with D_ii = 0 and D_ij >= 0, score i = the sum of the n_closest smallest distances
   to the OTHER points: the dropped entry is the distance of point i to itself *)
Theorem krum_scores_neighbourhood D nc i : (i < length D)%nat ->
  let row := nth i D [] in
  (i < length row)%nat -> nth i row 0 = 0 -> Forall (Rle 0) row ->
  nth i (krum_scores RN D nc) 0 = vsumR (firstn nc (isortR (remove_nth i row))).
Proof.
  intros Hi row Hir H0 Hnn. rewrite krum_scores_nth by exact Hi. fold row.
  apply krum_score_row; [exact Hir|]. rewrite H0. exact Hnn.
Qed.

(* the distance matrix computed from ANY Gramian satisfies these hypotheses *)
Lemma krum_dist_self G i : krum_dist RN G i i = 0.
Proof.
  unfold krum_dist. rn.
  replace (mget RN G i i + mget RN G i i - INR 2 * mget RN G i i) with 0 by (cbn [INR]; ring).
  apply sqrt_0.
Qed.

Lemma krum_dist_nonneg G i j : 0 <= krum_dist RN G i j.
Proof. unfold krum_dist. rn. apply sqrt_pos. Qed.

Theorem krum_scores_of_gramian G nc i : (i < length G)%nat ->
  nth i (krum_scores RN (krum_distances RN G) nc) 0 =
  vsumR (firstn nc (isortR (map (fun j => krum_dist RN G i j)
                                (seq 0 i ++ seq (S i) (length G - S i))))).
Proof.
  intros Hi.
  pose proof (krum_scores_neighbourhood (krum_distances RN G) nc i) as H. cbv zeta in H.
  rewrite krum_distances_row in H by exact Hi.
  rewrite remove_nth_map, remove_nth_seq in H by exact Hi. cbn [Nat.add] in H.
  apply H.
  - rewrite length_krum_distances. exact Hi.
  - rewrite map_length, seq_length. exact Hi.
  - rewrite nth_map_seq by exact Hi. apply krum_dist_self.
  - apply Forall_forall. intros y Hy. apply in_map_iff in Hy. destruct Hy as (j & <- & _).
    apply krum_dist_nonneg.
Qed.

Print Assumptions pc_vec_rscale.
Print Assumptions pcgrad_rscale_formula.
Print Assumptions pcgrad_linear_under_scaling_gen.
Print Assumptions pcgrad_linear_under_scaling.
Print Assumptions krum_score_row.
Print Assumptions krum_scores_neighbourhood.
Print Assumptions krum_scores_of_gramian.
Print Assumptions config_units_rscale.
Print Assumptions agg_config_rscale.
Print Assumptions config_linear_under_scaling.
