(* The UPGrad / DualProj models against the QP facts of QPProofs.v. *)
From Coq Require Import Reals List Lia.
From TJ Require Import Num Linalg NumR Agg.
From TJ.proofs Require Import LinalgR QPProofs.
Import ListNotations.
Local Open Scope R_scope.

Lemma constant_weights_ok (w : list R) m : length w = m -> constant_weights w m = Ok w.
Proof. intros H. unfold constant_weights. rewrite H, Nat.eqb_refl. reflexivity. Qed.

Lemma constant_weights_bad (w : list R) m : length w <> m -> constant_weights w m = Err ValueError.
Proof. intros H. unfold constant_weights. rewrite (proj2 (Nat.eqb_neq _ _) H). reflexivity. Qed.

Definition pref_ok (pref : option (list R)) (m : nat) : Prop :=
  match pref with Some p => length p = m | None => True end.
Definition pref_u (pref : option (list R)) (m : nat) : list R :=
  match pref with Some p => p | None => mean_weights RN m end.

Lemma pref_ok_some pref m : (forall w, pref = Some w -> length w = m) -> pref_ok pref m.
Proof. intros H. destruct pref as [w|]; cbn; [apply H; reflexivity|exact I]. Qed.

Lemma pref_weights_resolved pref (d : list R) m : pref_ok pref m ->
  pref_weights pref d m = Ok (match pref with Some w => w | None => d end).
Proof.
  destruct pref as [w|]; cbn; intros H; [|reflexivity]. apply constant_weights_ok. exact H.
Qed.

Lemma pref_weights_ok pref m : pref_ok pref m ->
  pref_weights pref (mean_weights RN m) m = Ok (pref_u pref m).
Proof. apply pref_weights_resolved. Qed.

Lemma pref_weights_length (pref : option (list R)) d m u : length d = m ->
  pref_weights pref d m = Ok u -> length u = m.
Proof.
  intros Hd. destruct pref as [q|]; cbn [pref_weights]; intros H.
  - destruct (Nat.eq_dec (length q) m) as [E|E]; [|rewrite constant_weights_bad in H by exact E; discriminate].
    rewrite constant_weights_ok in H by exact E. injection H as <-. exact E.
  - injection H as <-. exact Hd.
Qed.

Lemma pref_weights_bad p (d : list R) m : length p <> m ->
  pref_weights (Some p) d m = Err ValueError.
Proof.
  apply constant_weights_bad.
Qed.

Lemma length_pref_u pref m : pref_ok pref m -> length (pref_u pref m) = m.
Proof. destruct pref; cbn; auto. intros _. apply length_mean. Qed.

Lemma agg_dualproj_ok qp pref s ne re J : pref_ok pref (length J) ->
  agg_dualproj RN qp pref s ne re J =
  Ok (combineR J (qp (reg_norm_gramian RN (gramR J) s ne re) (pref_u pref (length J)))).
Proof. intros Hp. unfold agg_dualproj. rewrite pref_weights_ok by exact Hp. reflexivity. Qed.

Lemma agg_upgrad_ok qp pref s ne re J : pref_ok pref (length J) ->
  agg_upgrad RN qp pref s ne re J =
  Ok (combineR J (upgrad_weights RN qp (gramR J) s ne re (pref_u pref (length J)))).
Proof. intros Hp. unfold agg_upgrad. rewrite pref_weights_ok by exact Hp. reflexivity. Qed.

Section Spec.
Variables (n : nat) (J : list (list R)) (s ne re : R) (pref : option (list R)).
Variable qp : list (list R) -> list R -> list R.
Hypothesis HJ : wfmat n J.
Hypothesis Hs : 0 < s.
Hypothesis Hne : nltb RN s ne = false.
Hypothesis Hre : 0 < re.
Hypothesis Hpref : pref_ok pref (length J).
Let m := length J.
Let u := pref_u pref m.
Let M := reg_norm_gramian RN (gramR J) s ne re.

(* DualProj: the output is w . J for THE minimiser w of v^T M v, v >= u *)
Theorem dualproj_spec : is_min m M u (qp M u) ->
  agg_dualproj RN qp pref s ne re J = Ok (combineR J (qp M u)) /\
  (forall w', is_min m M u w' -> w' = qp M u).
Proof.
  intros Hq. split; [apply agg_dualproj_ok; exact Hpref|].
  intros w' Hw'. exact (min_unique n J s ne re HJ Hs Hne u w' (qp M u) Hre Hw' Hq).
Qed.

(* UPGrad: sum over i of THE minimisers for u_i e_i *)
Definition up_u (i : nat) : list R := onehotR m i (vget RN u i).

Theorem upgrad_spec : (forall i, (i < m)%nat -> is_min m M (up_u i) (qp M (up_u i))) ->
  agg_upgrad RN qp pref s ne re J =
    Ok (combineR J (vsum_rows RN m (map (fun i => qp M (up_u i)) (seq 0 m)))) /\
  (forall i w', (i < m)%nat -> is_min m M (up_u i) w' -> w' = qp M (up_u i)).
Proof.
  intros Hq. split.
  - rewrite agg_upgrad_ok by exact Hpref. unfold upgrad_weights.
    rewrite length_pref_u by exact Hpref. reflexivity.
  - intros i w' Hi Hw'.
    exact (min_unique n J s ne re HJ Hs Hne (up_u i) w' (qp M (up_u i)) Hre Hw' (Hq i Hi)).
Qed.

(* C04 for the two models: row i is opposed by at most the regularisation term *)
Theorem dualproj_nonconflicting i : is_min m M u (qp M u) -> (i < m)%nat ->
  - re * (s * s) * nth i (qp M u) 0 <= nth i (mvR J (combineR J (qp M u))) 0.
Proof.
  intros Hq Hi. rewrite (combine_wf n J _ HJ (lt_length_nonnil J i Hi)).
  exact (dualproj_allowance n J s ne re HJ Hs Hne u (qp M u) i Hq).
Qed.

Theorem upgrad_nonconflicting i :
  (forall k, (k < m)%nat -> is_min m M (up_u k) (qp M (up_u k))) -> (i < m)%nat ->
  let w := vsum_rows RN m (map (fun k => qp M (up_u k)) (seq 0 m)) in
  - re * (s * s) * nth i w 0 <= nth i (mvR J (combineR J w)) 0.
Proof.
  intros Hq Hi w. rewrite (combine_wf n J _ HJ (lt_length_nonnil J i Hi)).
  apply (upgrad_allowance n J s ne re HJ Hs Hne _ (map up_u (seq 0 m))).
  apply Forall2_map. intros k Hk. apply Hq. apply in_seq in Hk. lia.
Qed.

(* no conflict: both return u . J *)
Hypothesis Hnc : forall r r', In r J -> In r' J -> 0 <= dotR r r'.
Hypothesis Hu : nonneg u.

Theorem dualproj_no_conflict : is_min m M u (qp M u) ->
  agg_dualproj RN qp pref s ne re J = Ok (combineR J u).
Proof.
  intros Hq. rewrite agg_dualproj_ok by exact Hpref. f_equal. f_equal.
  exact (no_conflict_unique n J s ne re u (qp M u) HJ Hs Hne Hre Hnc (length_pref_u pref m Hpref) Hu Hq).
Qed.

Theorem upgrad_no_conflict :
  (forall i, (i < m)%nat -> is_min m M (up_u i) (qp M (up_u i))) ->
  agg_upgrad RN qp pref s ne re J = Ok (combineR J u).
Proof.
  intros Hq. destruct (upgrad_spec Hq) as [E _]. rewrite E. f_equal. f_equal.
  assert (Hlu : length u = m) by (apply length_pref_u; exact Hpref).
  rewrite <- (sum_onehots u), Hlu.
  f_equal. apply map_ext_in. intros i Hi.
  apply in_seq in Hi.
  eapply (no_conflict_unique n J s ne re); eauto.
  - apply length_onehot.
  - apply nonneg_onehot. apply nonneg_nth. exact Hu.
  - apply Hq. lia.
Qed.

End Spec.

(* below norm_eps: u . J as well *)
Theorem dualproj_below_norm_eps J s ne re pref qp :
  nltb RN s ne = true -> 0 < re -> pref_ok pref (length J) ->
  let m := length J in let u := pref_u pref m in
  let M := reg_norm_gramian RN (gramR J) s ne re in
  nonneg u -> is_min m M u (qp M u) ->
  agg_dualproj RN qp pref s ne re J = Ok (combineR J u).
Proof.
  intros Hne Hre Hp m u M Hu Hq. rewrite agg_dualproj_ok by exact Hp. f_equal. f_equal.
  apply (below_norm_eps_unique (gramR J) s ne re); auto; rewrite length_gram;
    [apply length_pref_u; exact Hp | exact Hq].
Qed.

