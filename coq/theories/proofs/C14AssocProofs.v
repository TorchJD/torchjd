From Coq Require Import List Bool Arith.
From TJ Require Import Num Autojac.
From TJ.proofs Require Import AutojacBasics C20Proofs C14Proofs.
Import ListNotations.

(* Does the nesting of Conjunctions matter?  A nested term l1|(m)|l2 is compared with the flat
   l1|m|l2, [m] spliced in; the three groupings (a|b)|c, a|(b|c), a|b|c are instances.

   Construction: no.  Both declare the same keys, and flattening, or wrapping a nonempty run of
   members, keeps a term well-formed.

   Application: one way only.  Once the inner union exists the outer union cannot tell it from its
   parts, so a nested run that succeeds is a flat run.  But the inner union is checked against ITS
   OWN type: b|c can be a Jacobians whose first dimensions differ while a|b|c, and (a|b)|c, are
   plain TensorDicts that are not checked at all.  So (a|b)|c may succeed where a|(b|c) raises
   ValueError, and associativity as a statement about success is false.  What holds: two groupings
   that both succeed agree; and where (a|b)|c succeeds, a|(b|c) returns the same exactly when its
   inner b|c succeeds, and otherwise raises ValueError with the same store. *)

Lemma flat_map_nested : forall {X Y} (f : Y -> list X) l1 x m l2,
  (forall k, In k (f x) <-> In k (flat_map f m)) ->
  forall k, In k (flat_map f (l1 ++ x :: l2)) <-> In k (flat_map f (l1 ++ m ++ l2)).
Proof.
  intros X Y f l1 x m l2 H k. rewrite !flat_map_app, !in_app_iff. cbn [flat_map].
  rewrite in_app_iff, (H k). reflexivity.
Qed.

Lemma conj_flat_keys_gen : forall l1 m l2 k,
  (In k (required_keys (TConj (l1 ++ TConj m :: l2))) <->
   In k (required_keys (TConj (l1 ++ m ++ l2)))) /\
  (In k (output_keys (TConj (l1 ++ TConj m :: l2))) <->
   In k (output_keys (TConj (l1 ++ m ++ l2)))).
Proof.
  intros l1 m l2 k. cbn [required_keys output_keys]. rewrite !dedup_In.
  split; apply flat_map_nested; intros k'; apply dedup_In.
Qed.

Lemma conj_assoc_keys : forall a b c k,
  (In k (required_keys (TConj [TConj [a; b]; c])) <-> In k (required_keys (TConj [a; TConj [b; c]]))) /\
  (In k (output_keys (TConj [TConj [a; b]; c])) <-> In k (output_keys (TConj [a; TConj [b; c]]))).
Proof.
  intros a b c k.
  destruct (conj_flat_keys_gen [] [a; b] [c] k) as [R1 O1].
  destruct (conj_flat_keys_gen [a] [b; c] [] k) as [R2 O2].
  split; [exact (iff_trans R1 (iff_sym R2)) | exact (iff_trans O1 (iff_sym O2))].
Qed.

Lemma wf_conj_sub_req : forall ts m,
  wf (TConj ts) = true -> incl m ts -> m <> [] ->
  forall k, In k (required_keys (TConj m)) <-> In k (required_keys (TConj ts)).
Proof.
  intros ts m Hwf Hi Hm k. rewrite (conj_req_In m). split.
  - intros [t [Ht Hk]]. apply (wf_conj_req ts t Hwf (Hi t Ht)). exact Hk.
  - intros Hk. destruct m as [|t0 m']; [contradiction Hm; reflexivity|].
    exists t0. split; [left; reflexivity|].
    apply (wf_conj_req ts t0 Hwf (Hi t0 (or_introl eq_refl))). exact Hk.
Qed.

Lemma out_nested : forall l1 m l2,
  NoDup (flat_map output_keys m) ->
  flat_map output_keys (l1 ++ TConj m :: l2) = flat_map output_keys (l1 ++ m ++ l2).
Proof.
  intros l1 m l2 H. rewrite !flat_map_app. cbn [flat_map]. f_equal. f_equal.
  exact (dedup_id _ H).
Qed.

(* flattening: the members of the inner conjunction require what it requires, hence what the
   whole does; its output keys are theirs, being duplicate-free *)
Lemma conj_unnest_wf : forall l1 m l2,
  wf (TConj (l1 ++ TConj m :: l2)) = true -> wf (TConj (l1 ++ m ++ l2)) = true.
Proof.
  intros l1 m l2 Hwf. destruct (proj1 (conj_iff _) Hwf) as [HF [_ Hnd]].
  apply Forall_app in HF. destruct HF as [HF1 HF2].
  pose proof (Forall_inv HF2) as Hwfm. apply Forall_inv_tail in HF2.
  destruct (proj1 (conj_iff m) Hwfm) as [HFm [_ Hndm]].
  apply (conj_wf_intro _ (required_keys (TConj (l1 ++ TConj m :: l2)))).
  - apply Forall_app. split; [exact HF1|]. apply Forall_app. split; assumption.
  - intros t Ht. apply in_app_or in Ht.
    destruct Ht as [Ht|Ht]; [|apply in_app_or in Ht; destruct Ht as [Ht|Ht]].
    + apply (wf_conj_req _ t Hwf). apply in_or_app. left. exact Ht.
    + intros k. apply (iff_trans (wf_conj_req m t Hwfm Ht k)).
      apply (wf_conj_req _ (TConj m) Hwf). apply in_elt.
    + apply (wf_conj_req _ t Hwf). apply in_or_app. right. right. exact Ht.
  - rewrite <- (out_nested l1 m l2 Hndm). exact Hnd.
Qed.

(* wrapping: a nonempty run of members requires the keys of the whole, so its conjunction is
   well-formed and can stand in their place *)
Lemma conj_nest_wf : forall l1 m l2,
  m <> [] -> wf (TConj (l1 ++ m ++ l2)) = true -> wf (TConj (l1 ++ TConj m :: l2)) = true.
Proof.
  intros l1 m l2 Hm Hwf. destruct (proj1 (conj_iff _) Hwf) as [HF [_ Hnd]].
  apply Forall_app in HF. destruct HF as [HF1 HF2].
  apply Forall_app in HF2. destruct HF2 as [HFm HF2].
  assert (Hin : incl m (l1 ++ m ++ l2)).
  { intros t Ht. apply in_or_app. right. apply in_or_app. left. exact Ht. }
  assert (Hndm : NoDup (flat_map output_keys m)).
  { rewrite !flat_map_app in Hnd. exact (NoDup_app_l _ _ (NoDup_app_r _ _ Hnd)). }
  apply (conj_wf_intro _ (required_keys (TConj (l1 ++ m ++ l2)))).
  - apply Forall_app. split; [exact HF1|]. constructor; [|exact HF2].
    apply (conj_wf_intro m (required_keys (TConj (l1 ++ m ++ l2))) HFm); [|exact Hndm].
    intros t Ht. exact (wf_conj_req _ t Hwf (Hin t Ht)).
  - intros t Ht. apply in_app_or in Ht. destruct Ht as [Ht|[<-|Ht]].
    + apply (wf_conj_req _ t Hwf). apply in_or_app. left. exact Ht.
    + exact (wf_conj_sub_req _ m Hwf Hin Hm).
    + apply (wf_conj_req _ t Hwf). apply in_or_app. right. apply in_or_app. right. exact Ht.
  - rewrite (out_nested l1 m l2 Hndm). exact Hnd.
Qed.

Lemma conj_flat_wf_gen : forall l1 m l2,
  m <> [] -> wf (TConj (l1 ++ TConj m :: l2)) = wf (TConj (l1 ++ m ++ l2)).
Proof.
  intros l1 m l2 Hm. apply eq_true_iff_eq.
  split; [apply conj_unnest_wf | apply (conj_nest_wf l1 m l2 Hm)].
Qed.

Lemma conj_flat_wf : forall a b c,
  wf (TConj [TConj [a; b]; c]) = wf (TConj [a; b; c]).
Proof. intros a b c. apply (conj_flat_wf_gen [] [a; b] [c]). discriminate. Qed.

Lemma conj_assoc_wf : forall a b c,
  wf (TConj [TConj [a; b]; c]) = wf (TConj [a; TConj [b; c]]).
Proof.
  intros a b c. rewrite conj_flat_wf. symmetry.
  apply (conj_flat_wf_gen [a] [b; c] []). discriminate.
Qed.

Section C14Assoc.
Context {T : Type} (N : Num T) (P : prog T) (A : list (list T) -> res (list T)).
Notation run := (run N P A).
Notation run_list := (run_list N P A).
Notation tdictT := (@tdict T).

Lemma fold_lca : forall (ds : list tdictT) acc,
  fold_left (fun a d => lca a (dk d)) ds acc =
  lca acc (fold_left (fun a d => lca a (dk d)) ds KEmpty).
Proof.
  induction ds as [|d ds IH]; intros acc; cbn [fold_left].
  - destruct acc; reflexivity.
  - rewrite (IH (lca acc (dk d))), (IH (lca KEmpty (dk d))), (lca_assoc acc (dk d)). reflexivity.
Qed.

Lemma union_dicts_nested : forall (ds1 dsm ds2 : list tdictT) dm,
  union_dicts P dsm = Ok dm ->
  union_dicts P (ds1 ++ dm :: ds2) = union_dicts P (ds1 ++ dsm ++ ds2).
Proof.
  intros ds1 dsm ds2 dm H. unfold union_dicts in H. apply mk_dict_ok in H. subst dm.
  unfold union_dicts. rewrite !fold_left_app, !flat_map_app. cbn [fold_left flat_map dk ditems].
  rewrite (fold_lca dsm (fold_left _ ds1 KEmpty)). reflexivity.
Qed.

Theorem conj_nested_run : forall l1 m l2 s d ds1 sa dm sb,
  run_list d l1 s = (Ok ds1, sa) -> run (TConj m) sa d = (Ok dm, sb) ->
  run (TConj (l1 ++ TConj m :: l2)) s d = run (TConj (l1 ++ m ++ l2)) s d.
Proof.
  intros l1 m l2 s d ds1 sa dm sb E1 Em.
  destruct (run_conj_inv N P A _ _ _ _ _ Em) as [dsm [Elm Hum]].
  rewrite !run_conj_eq,
    (set_eqb_congr_r _ _ _ (fun k => proj1 (conj_flat_keys_gen l1 m l2 k))).
  destruct (negb _); [reflexivity|].
  rewrite (run_list_app N P A d l1 (TConj m :: l2)), (run_list_app N P A d l1 (m ++ l2)), E1,
    run_list_cons, Em, run_list_app, Elm.
  destruct (run_list d l2 sb) as [[ds2|e] s2]; [|reflexivity].
  rewrite (union_dicts_nested _ _ _ _ Hum). reflexivity.
Qed.

Theorem conj_flat_run : forall l1 m l2 s d d1 s1,
  run (TConj (l1 ++ TConj m :: l2)) s d = (Ok d1, s1) ->
  run (TConj (l1 ++ m ++ l2)) s d = (Ok d1, s1).
Proof.
  intros l1 m l2 s d d1 s1 H. destruct (run_conj_inv N P A _ _ _ _ _ H) as [ds [Hl _]].
  rewrite run_list_app in Hl.
  destruct (run_list d l1 s) as [[ds1|e] sa] eqn:E1; [|discriminate Hl].
  rewrite run_list_cons in Hl.
  destruct (run (TConj m) sa d) as [[dm|e] sb] eqn:Em; [|discriminate Hl].
  rewrite <- (conj_nested_run l1 m l2 s d ds1 sa dm sb E1 Em). exact H.
Qed.

Lemma conj_flat_gen : forall a b c s d d1 s1,
  run (TConj [TConj [a; b]; c]) s d = (Ok d1, s1) ->
  exists d2, run (TConj [a; b; c]) s d = (Ok d2, s1) /\ dict_equiv d1 d2.
Proof.
  intros a b c s d d1 s1 H. exists d1.
  split; [exact (conj_flat_run [] [a; b] [c] s d d1 s1 H) | apply dict_equiv_refl].
Qed.

Lemma conj_flat : forall a b c s d d1 s1,
  pure a = true -> pure b = true -> pure c = true ->
  wf (TConj [TConj [a; b]; c]) = true ->
  run (TConj [TConj [a; b]; c]) s d = (Ok d1, s1) ->
  exists d2, run (TConj [a; b; c]) s d = (Ok d2, s1) /\ dict_equiv d1 d2.
Proof.
  intros a b c s d d1 s1 _ _ _ _ H. apply (conj_flat_gen a b c s d d1 s1 H).
Qed.

Lemma conj_flat_both : forall a b c s d d1 s1 d2 s2,
  run (TConj [TConj [a; b]; c]) s d = (Ok d1, s1) ->
  run (TConj [a; b; c]) s d = (Ok d2, s2) ->
  dict_equiv d1 d2 /\ s1 = s2.
Proof.
  intros a b c s d d1 s1 d2 s2 H1 H2.
  pose proof (conj_flat_run [] [a; b] [c] s d d1 s1 H1 : run (TConj [a; b; c]) s d = _) as H1'.
  rewrite H2 in H1'. injection H1' as <- <-. split; [apply dict_equiv_refl | reflexivity].
Qed.

(* both flatten to a|b|c *)
Lemma conj_assoc_both : forall a b c s d d1 s1 d2 s2,
  pure a = true -> pure b = true -> pure c = true ->
  wf (TConj [TConj [a; b]; c]) = true ->
  run (TConj [TConj [a; b]; c]) s d = (Ok d1, s1) ->
  run (TConj [a; TConj [b; c]]) s d = (Ok d2, s2) ->
  dict_equiv d1 d2 /\ s1 = s2.
Proof.
  intros a b c s d d1 s1 d2 s2 _ _ _ _ H1 H2.
  exact (conj_flat_both a b c s d d1 s1 d2 s2 H1 (conj_flat_run [a] [b; c] [] s d d2 s2 H2)).
Qed.

Lemma conj_assoc_inner_gen : forall a b c s d d1 s1 da sa dbc s2,
  run (TConj [TConj [a; b]; c]) s d = (Ok d1, s1) ->
  run a s d = (Ok da, sa) ->
  run (TConj [b; c]) sa d = (Ok dbc, s2) ->
  exists d2, run (TConj [a; TConj [b; c]]) s d = (Ok d2, s1) /\ dict_equiv d1 d2.
Proof.
  intros a b c s d d1 s1 da sa dbc s2 H Ha Hbc. exists d1. split; [|apply dict_equiv_refl].
  assert (E : run (TConj [a; TConj [b; c]]) s d = run (TConj [a; b; c]) s d).
  { apply (conj_nested_run [a] [b; c] [] s d [da] sa dbc s2); [|exact Hbc].
    rewrite run_list_cons, Ha, run_list_nil. reflexivity. }
  rewrite E. exact (conj_flat_run [] [a; b] [c] s d d1 s1 H).
Qed.

Lemma conj_left_first : forall a b c s d d1 s1,
  run (TConj [TConj [a; b]; c]) s d = (Ok d1, s1) ->
  exists da sa dsbc, run a s d = (Ok da, sa) /\ run_list d [b; c] sa = (Ok dsbc, s1).
Proof.
  intros a b c s d d1 s1 H. apply (conj_flat_run [] [a; b] [c]) in H.
  apply run_conj_inv in H. destruct H as [ds [Hl _]].
  apply run_list_ok_cons in Hl. destruct Hl as (da & sa & dsbc & Ha & Hl & _).
  exists da, sa, dsbc. split; assumption.
Qed.

Lemma conj_assoc_dich : forall a b c s d d1 s1,
  run (TConj [TConj [a; b]; c]) s d = (Ok d1, s1) ->
  (exists d2, run (TConj [a; TConj [b; c]]) s d = (Ok d2, s1) /\ dict_equiv d1 d2)
  \/ run (TConj [a; TConj [b; c]]) s d = (Err ValueError, s1).
Proof.
  intros a b c s d d1 s1 H.
  pose proof (run_keys_ok N P A _ _ _ _ _ H) as K.
  destruct (conj_left_first a b c s d d1 s1 H) as (da & sa & dsbc & Ha & Hbc).
  (* b and c ran, so each passed its key test, and then so does their conjunction *)
  assert (Ebc : run (TConj [b; c]) sa d = (union_dicts P dsbc, s1)).
  { destruct (proj1 (run_list_ok_cons N P A _ _ _ _ _ _) Hbc) as (db & sb & dsc & Hb & Hc & _).
    destruct (proj1 (run_list_ok_cons N P A _ _ _ _ _ _) Hc) as (dc & sc & _ & Hc' & _).
    pose proof (proj1 (set_eqb_spec _ _) (run_keys_ok N P A _ _ _ _ _ Hb)) as Kb.
    pose proof (proj1 (set_eqb_spec _ _) (run_keys_ok N P A _ _ _ _ _ Hc')) as Kc.
    rewrite (run_conj_same_req N P A b [b; c] sa d (run_keys_ok N P A _ _ _ _ _ Hb)), Hbc;
      [reflexivity|].
    intros k. rewrite conj_req_In. split.
    - intros [t [[<-|[<-|[]]] Hk]]; [exact Hk | apply Kb, Kc; exact Hk].
    - intros Hk. exists b. split; [left; reflexivity | exact Hk]. }
  destruct (union_dicts P dsbc) as [dbc|e] eqn:Eu.
  - left. exact (conj_assoc_inner_gen a b c s d d1 s1 da sa dbc s1 H Ha Ebc).
  - right. apply mk_dict_err in Eu. subst e.
    rewrite (run_conj_same_req N P A (TConj [TConj [a; b]; c]) [a; TConj [b; c]] s d K).
    + rewrite run_list_cons, Ha, run_list_cons, Ebc. reflexivity.
    + intros k. exact (iff_sym (proj1 (conj_assoc_keys a b c k))).
Qed.

(* when [a] has no side effect the inner conjunction can be applied on the initial store *)
Lemma conj_assoc_inner : forall a b c s d d1 s1 dbc s2,
  pure a = true ->
  run (TConj [TConj [a; b]; c]) s d = (Ok d1, s1) ->
  run (TConj [b; c]) s d = (Ok dbc, s2) ->
  exists d2, run (TConj [a; TConj [b; c]]) s d = (Ok d2, s1) /\ dict_equiv d1 d2.
Proof.
  intros a b c s d d1 s1 dbc s2 Hpa H Hbc.
  destruct (conj_left_first a b c s d d1 s1 H) as (da & sa & _ & Ha & _).
  pose proof (pure_store N P A a s d (Ok da) sa Hpa Ha) as Hs. subst sa.
  apply (conj_assoc_inner_gen a b c s d d1 s1 da s dbc s2 H Ha Hbc).
Qed.

Lemma conj_assoc_iff : forall a b c s d d1 s1,
  pure a = true -> pure b = true -> pure c = true ->
  wf (TConj [TConj [a; b]; c]) = true ->
  run (TConj [TConj [a; b]; c]) s d = (Ok d1, s1) ->
  ((exists d2, run (TConj [a; TConj [b; c]]) s d = (Ok d2, s1) /\ dict_equiv d1 d2)
   <-> exists dbc, run (TConj [b; c]) s d = (Ok dbc, s1)).
Proof.
  intros a b c s d d1 s1 Hpa _ _ _ H. split.
  - intros [d2 [HR _]].
    apply run_conj_inv in HR. destruct HR as [ds [Hl _]].
    apply run_list_ok_cons in Hl. destruct Hl as (da & sa & ds1 & Ha & Hl & _).
    apply run_list_ok_cons in Hl. destruct Hl as (dbc & sb & ds2 & Hbc & Hl & _).
    rewrite run_list_nil in Hl. injection Hl as _ <-.
    pose proof (pure_store N P A a s d (Ok da) sa Hpa Ha) as Hs. subst sa.
    exists dbc. exact Hbc.
  - intros [dbc Hbc].
    apply (conj_assoc_inner a b c s d d1 s1 dbc s1 Hpa H Hbc).
Qed.

End C14Assoc.

(* a grouping that succeeds while the other fails: tensors 1 and 2 of shapes [2] and [3];
     a = Init{0}                      -> Gradients   {0}
     b = Diagonalize[1] << Init{1}    -> Jacobians   {1}, 2 rows
     c = Diagonalize[2] << Init{2}    -> Jacobians   {2}, 3 rows
   (a|b)|c : inner union Gradients+Jacobians is a plain TensorDict, outer too: succeeds.
   a|(b|c) : inner union is a Jacobians with first dimensions 2 and 3: ValueError. *)
Section Counterexample.
Context {T : Type} (N : Num T) (A : list (list T) -> res (list T)).

Definition cex_prog : prog T :=
  mkProg T (fun t => match t with 1 => [2] | 2 => [3] | _ => [] end)
    (fun _ _ => []) (fun _ _ => false) (fun _ => false) (fun _ => false)
    (fun _ => None) (fun _ => None) (fun _ => []) (fun _ => None) (fun _ => false) 0.
Definition cex_a : tr := TInit [0].
Definition cex_b : tr := TComp (TDiag [1]) (TInit [1]).
Definition cex_c : tr := TComp (TDiag [2]) (TInit [2]).
Definition cex_store : @store T := mkStore [] [] [] 0.

Lemma conj_assoc_counterexample :
  pure cex_a = true /\ pure cex_b = true /\ pure cex_c = true
  /\ wf (TConj [TConj [cex_a; cex_b]; cex_c]) = true
  /\ wf (TConj [cex_a; TConj [cex_b; cex_c]]) = true
  /\ (exists d1, run N cex_prog A (TConj [TConj [cex_a; cex_b]; cex_c]) cex_store empty_dict
                 = (Ok d1, cex_store))
  /\ (exists d3, run N cex_prog A (TConj [cex_a; cex_b; cex_c]) cex_store empty_dict
                 = (Ok d3, cex_store))
  /\ run N cex_prog A (TConj [cex_a; TConj [cex_b; cex_c]]) cex_store empty_dict
     = (Err ValueError, cex_store).
Proof.
  split; [reflexivity|]. split; [reflexivity|]. split; [reflexivity|].
  split; [vm_compute; reflexivity|]. split; [vm_compute; reflexivity|].
  split; [eexists; vm_compute; reflexivity|].
  split; [eexists; vm_compute; reflexivity|].
  vm_compute. reflexivity.
Qed.

Lemma conj_assoc_false :
  ~ (forall (P : prog T) a b c s d d1 s1,
       pure a = true -> pure b = true -> pure c = true ->
       wf (TConj [TConj [a; b]; c]) = true ->
       run N P A (TConj [TConj [a; b]; c]) s d = (Ok d1, s1) ->
       exists d2, run N P A (TConj [a; TConj [b; c]]) s d = (Ok d2, s1) /\ dict_equiv d1 d2).
Proof.
  intros Hall.
  destruct conj_assoc_counterexample as [Hpa [Hpb [Hpc [Hwf [_ [[d1 H1] [_ HE]]]]]]].
  destruct (Hall cex_prog cex_a cex_b cex_c cex_store empty_dict d1 cex_store
              Hpa Hpb Hpc Hwf H1) as [d2 [H2 _]].
  rewrite HE in H2. discriminate H2.
Qed.
End Counterexample.

Print Assumptions conj_assoc_wf.
Print Assumptions conj_flat_wf.
Print Assumptions conj_assoc_keys.
Print Assumptions conj_flat.
Print Assumptions conj_flat_gen.
Print Assumptions conj_flat_both.
Print Assumptions conj_assoc_both.
Print Assumptions conj_assoc_dich.
Print Assumptions conj_assoc_inner.
Print Assumptions conj_assoc_inner_gen.
Print Assumptions conj_assoc_iff.
Print Assumptions conj_assoc_counterexample.
Print Assumptions conj_assoc_false.
