(* When the features form a cut between every loss and every shared parameter, the matrix that
   mtl_backward hands to the aggregator is the Jacobian of the losses w.r.t. the shared parameters,
   as in backward.  Hence, on the shared parameters, mtl_backward deposits what
   backward(losses, shared) deposits (any aggregator), and with fixed weights w what
   torch.autograd.backward(losses, w) gives.  Last, chaining two Jac (or Grad) transforms through
   a cut equals the end-to-end transform. *)
From Coq Require Import Reals List Bool Arith.
From TJ Require Import Num NumR Chunk Agg Autojac.
From TJ.proofs Require Import AutojacBasics AutojacSpec EntrySpec C20Proofs C01Proofs
  C02Proofs C05Proofs C15Proofs.
Import ListNotations.
Local Open Scope R_scope.

Section EndToEnd.
Variable P : prog R.

Lemma vjp_chain_map outs mid i (g : tid -> list R) :
  wf_prog P -> (forall o, In o outs -> length (g o) = pnumel P o) -> is_cut P outs mid i ->
  vjp RN P mid (map (fun f => vjp RN P outs (map g outs) f) mid) i = vjp RN P outs (map g outs) i.
Proof.
  intros Hwf Hg Hcut. apply (vjp_chain P outs mid i (map g outs) Hwf (map_length g outs)); [|exact Hcut].
  intros j o Hj. rewrite (nth_error_nth _ _ _ (map_nth_error g _ _ Hj)).
  apply Hg. eapply nth_error_In. exact Hj.
Qed.

Lemma grad_through_cut : forall l features p,
  wf_prog P -> pnumel P l = 1%nat -> is_cut P [l] features p ->
  vjp RN P features (map (grad_of P l) features) p = grad_of P l p.
Proof.
  intros l features p Hwf H1 Hcut.
  rewrite <- (vjp_scalar_loss P l p Hwf H1).
  rewrite (map_ext (grad_of P l) (fun f => vjp RN P [l] (map (fun _ => [1]) [l]) f))
    by (intros f; symmetry; apply vjp_scalar_loss; assumption).
  apply (vjp_chain_map [l] features p (fun _ => [1]) Hwf); [|exact Hcut].
  intros o [<-|[]]. symmetry. exact H1.
Qed.

Lemma mtl_row_end_to_end : forall features shared l,
  wf_prog P -> pnumel P l = 1%nat ->
  (forall p, In p shared -> is_cut P [l] features p) ->
  mtl_row P features shared l = concat (map (fun p => grad_of P l p) shared).
Proof.
  intros features shared l Hwf H1 Hcut. unfold mtl_row. apply (f_equal (@concat R)).
  apply map_ext_in. intros p Hp. apply grad_through_cut; [exact Hwf | exact H1 | apply Hcut; exact Hp].
Qed.

Lemma jacobian_scalar l ord : pnumel P l = 1%nat ->
  jacobian P [l] ord = [concat (map (fun p => grad_of P l p) ord)].
Proof.
  intros H1. unfold jacobian. rewrite total_cons, H1. change (total P []) with 0%nat.
  cbn [Nat.add seq map]. apply (f_equal (fun gs => [concat gs])). apply map_ext. intros i.
  rewrite Drows_cons. change (Drows P [] i) with (@nil (list R)). rewrite app_nil_r. reflexivity.
Qed.

Lemma jacobian_scalar_rows : forall losses ord,
  wf_prog P -> (forall l, In l losses -> pnumel P l = 1%nat) ->
  jacobian P losses ord = map (fun l => concat (map (fun p => grad_of P l p) ord)) losses.
Proof.
  induction losses as [|l losses IH]; intros ord Hwf H1; [reflexivity|].
  rewrite (jacobian_rows_app P [l] losses ord Hwf : jacobian P (l :: losses) ord = _).
  rewrite (jacobian_scalar l ord (H1 l (or_introl eq_refl))).
  rewrite (IH ord Hwf (fun l' Hl' => H1 l' (or_intror Hl'))). reflexivity.
Qed.

Theorem mtl_matrix_is_jacobian : forall features shared losses,
  wf_prog P ->
  (forall l, In l losses -> pnumel P l = 1%nat) ->
  (forall l p, In l losses -> In p shared -> is_cut P [l] features p) ->
  mtl_matrix P features shared losses = jacobian P losses shared.
Proof.
  intros features shared losses Hwf H1 Hcut.
  rewrite (jacobian_scalar_rows losses shared Hwf H1). unfold mtl_matrix.
  apply map_ext_in. intros l Hl. apply mtl_row_end_to_end.
  - exact Hwf.
  - apply H1. exact Hl.
  - intros p Hp. apply Hcut; assumption.
Qed.

Lemma mtl_accepted_scalar_losses : forall A losses features tasks shared k retain s d' s',
  mtl_backward_model RN P A losses features tasks shared k retain s = (Ok d', s') ->
  (1 <= total P losses)%nat /\ forall l, In l losses -> pnumel P l = 1%nat.
Proof.
  intros A losses features tasks shared k retain s d' s' H.
  destruct (mtl_args_ok P losses features tasks shared k retain) eqn:Hok;
    [|rewrite (mtl_args_rejected RN P A _ _ _ _ _ _ s Hok) in H; discriminate H].
  apply (mtl_args_ok_spec P) in Hok. destruct Hok as (_ & _ & _ & Hsh & Hle & _).
  assert (H1 : forall l, In l losses -> pnumel P l = 1%nat).
  { intros l Hl. unfold pnumel. rewrite (Hsh l Hl). reflexivity. }
  split; [|exact H1]. destruct losses as [|l0 ls]; [congruence|].
  rewrite total_cons, (H1 l0 (or_introl eq_refl)). apply le_n_S, Nat.le_0_l.
Qed.

Theorem mtl_deposit_end_to_end : forall A losses features tasks shared k retain s d' s',
  wf_prog P -> shared <> [] ->
  (forall l p, In l losses -> In p shared -> is_cut P [l] features p) ->
  mtl_backward_model RN P A losses features tasks shared k retain s = (Ok d', s') ->
  exists v, A (jacobian P losses shared) = Ok v /\ length v = total P shared /\
    forall p, In p shared ->
      grad_val s' p = Some (acc_val (grad_val s p) (plain (p_shape P p) (slice_of P shared v p))).
Proof.
  intros A losses features tasks shared k retain s d' s' Hwf Hse Hcut H.
  destruct (mtl_accepted_scalar_losses A _ _ _ _ _ _ _ _ _ H) as [_ H1].
  destruct (mtl_deposit P A losses features tasks shared k retain s d' s' Hwf Hse H)
    as (v & HA & Hlv & Hdep & _).
  rewrite (mtl_matrix_is_jacobian features shared losses Hwf H1 Hcut) in HA.
  exists v. split; [exact HA|]. split; [exact Hlv | exact Hdep].
Qed.

(* for ANY aggregator: under the cut hypothesis mtl_backward and backward(losses, inputs = shared)
   deposit the same slices (of the same aggregated vector) on the shared parameters *)
Theorem mtl_equals_backward_on_shared :
  forall A losses features tasks shared k retain s d' s' kb retainb sb db sb',
  wf_prog P -> shared <> [] ->
  (forall l p, In l losses -> In p shared -> is_cut P [l] features p) ->
  mtl_backward_model RN P A losses features tasks shared k retain s = (Ok d', s') ->
  backward_model RN P A losses shared kb retainb sb = (Ok db, sb') ->
  exists v, A (jacobian P losses shared) = Ok v /\ length v = total P shared /\
    forall p, In p shared ->
      grad_val s' p = Some (acc_val (grad_val s p) (plain (p_shape P p) (slice_of P shared v p))) /\
      grad_val sb' p = Some (acc_val (grad_val sb p) (plain (p_shape P p) (slice_of P shared v p))).
Proof.
  intros A losses features tasks shared k retain s d' s' kb retainb sb db sb' Hwf Hse Hcut Hm Hb.
  destruct (mtl_deposit_end_to_end A losses features tasks shared k retain s d' s' Hwf Hse Hcut Hm)
    as (v & HA & Hlv & Hdep).
  destruct (backward_deposit_any P A losses shared kb retainb sb db sb' Hwf Hse Hb)
    as (_ & _ & v' & HA' & _ & Hdep' & _).
  rewrite HA in HA'. injection HA' as <-.
  exists v. split; [exact HA|]. split; [exact Hlv|].
  intros p Hp. split; [apply Hdep; exact Hp | apply Hdep'; exact Hp].
Qed.

Corollary mtl_equals_backward_on_shared_same_store :
  forall A losses features tasks shared k retain s d' s' kb retainb db sb',
  wf_prog P -> shared <> [] ->
  (forall l p, In l losses -> In p shared -> is_cut P [l] features p) ->
  mtl_backward_model RN P A losses features tasks shared k retain s = (Ok d', s') ->
  backward_model RN P A losses shared kb retainb s = (Ok db, sb') ->
  forall p, In p shared -> grad_val s' p = grad_val sb' p.
Proof.
  intros A losses features tasks shared k retain s d' s' kb retainb db sb' Hwf Hse Hcut Hm Hb p Hp.
  destruct (mtl_equals_backward_on_shared A losses features tasks shared k retain s d' s'
              kb retainb s db sb' Hwf Hse Hcut Hm Hb) as (v & _ & _ & Hdep).
  destruct (Hdep p Hp) as [E1 E2]. rewrite E1, E2. reflexivity.
Qed.

(* fixed weights: what torch.autograd.backward(losses, grad_tensors = w) accumulates *)
Theorem mtl_constant_deposit : forall w losses features tasks shared k retain s d' s',
  wf_prog P -> shared <> [] ->
  (forall l p, In l losses -> In p shared -> is_cut P [l] features p) ->
  mtl_backward_model RN P (agg_constant RN w) losses features tasks shared k retain s = (Ok d', s') ->
  length w = total P losses /\
  forall p, In p shared ->
    grad_val s' p = Some (acc_val (grad_val s p)
      (plain (p_shape P p)
         (materialize RN P p (ag_value RN P losses (split_by (map (pnumel P) losses) w) p)))).
Proof.
  intros w losses features tasks shared k retain s d' s' Hwf Hse Hcut H.
  destruct (mtl_accepted_scalar_losses _ _ _ _ _ _ _ _ _ _ H) as [Htot _].
  destruct (mtl_deposit_end_to_end (agg_constant RN w) losses features tasks shared k retain s d' s'
              Hwf Hse Hcut H) as (v & HA & _ & Hdep).
  apply agg_constant_inv in HA. destruct HA as [-> Hlw]. rewrite length_jacobian in Hlw.
  split; [exact Hlw|].
  intros p Hp. rewrite (Hdep p Hp). rewrite materialize_vjp by exact Hwf.
  rewrite combine_jacobian_slice by assumption. reflexivity.
Qed.

Corollary mtl_constant_deposit_vjp : forall w losses features tasks shared k retain s d' s',
  wf_prog P -> shared <> [] ->
  (forall l p, In l losses -> In p shared -> is_cut P [l] features p) ->
  mtl_backward_model RN P (agg_constant RN w) losses features tasks shared k retain s = (Ok d', s') ->
  forall p, In p shared ->
    grad_val s' p = Some (acc_val (grad_val s p)
      (plain (p_shape P p) (vjp RN P losses (split_by (map (pnumel P) losses) w) p))).
Proof.
  intros w losses features tasks shared k retain s d' s' Hwf Hse Hcut H p Hp.
  destruct (mtl_constant_deposit w losses features tasks shared k retain s d' s' Hwf Hse Hcut H)
    as [_ Hdep].
  rewrite (Hdep p Hp). rewrite materialize_vjp by exact Hwf. reflexivity.
Qed.

Corollary mtl_constant_equals_backward_constant :
  forall w losses features tasks shared k retain s d' s' kb retainb db sb',
  wf_prog P -> shared <> [] ->
  (forall l p, In l losses -> In p shared -> is_cut P [l] features p) ->
  mtl_backward_model RN P (agg_constant RN w) losses features tasks shared k retain s = (Ok d', s') ->
  backward_model RN P (agg_constant RN w) losses shared kb retainb s = (Ok db, sb') ->
  forall p, In p shared -> grad_val s' p = grad_val sb' p.
Proof.
  intros w losses features tasks shared k retain s d' s' kb retainb db sb' Hwf Hse Hcut Hm Hb.
  exact (mtl_equals_backward_on_shared_same_store (agg_constant RN w) losses features tasks shared
           k retain s d' s' kb retainb db sb' Hwf Hse Hcut Hm Hb).
Qed.

Variable A : list (list R) -> res (list R).

(* Jac . Jac through a cut = Jac end to end (both runs succeeding) *)
Theorem jac_comp_chain : forall outs mid ins k1 r1 k2 r2 k r s d dc sc se de se' m,
  wf_prog P -> outs <> [] -> mid <> [] -> NoDup mid -> NoDup ins ->
  valid_chunk k1 = true -> valid_chunk k2 = true -> valid_chunk k = true -> (1 <= m)%nat ->
  (forall o, In o outs -> nrows (dget' d o) = m /\
                          Forall (fun row => length row = pnumel P o) (t_rows (dget' d o))) ->
  (forall i, In i ins -> is_cut P outs mid i) ->
  run RN P A (TComp (TJac mid ins k2 r2) (TJac outs mid k1 r1)) s d = (Ok dc, sc) ->
  run RN P A (TJac outs ins k r) se d = (Ok de, se') ->
  dk dc = dk de /\
  forall i, In i ins ->
    dget dc i = dget de i /\
    dget dc i = Some (mkTens true (p_shape P i)
      (map (fun r0 => vjp RN P outs (map (fun o => nth r0 (t_rows (dget' d o)) []) outs) i)
           (seq 0 m))).
Proof.
  intros outs mid ins k1 r1 k2 r2 k r s d dc sc se de se' m
         Hwf Ho Hmid Hndm Hndi Hk1 Hk2 Hk Hm Hrows Hcut Hc He.
  apply run_comp_inv in Hc. destruct Hc as (d1 & s1 & Hj1 & Hj2).
  destruct (jac_rows P A outs mid k1 r1 s d d1 s1 m Hwf Ho Hndm Hk1 Hm Hrows Hj1) as [Hdk1 Hd1].
  destruct (jac_vjp_given P A mid ins k2 r2 s1 d1 dc sc m
              (fun r0 f => vjp RN P outs (map (fun o => nth r0 (t_rows (dget' d o)) []) outs) f)
              Hwf Hmid Hndi Hk2) as [Hdkc Hdc]; [|exact Hj2|].
  { intros f Hf. unfold dget'. rewrite (Hd1 f Hf). reflexivity. }
  destruct (jac_rows P A outs ins k r se d de se' m Hwf Ho Hndi Hk Hm Hrows He) as [Hdke Hde].
  split; [rewrite Hdkc, Hdk1, Hdke; reflexivity|].
  intros i Hi.
  assert (E : dget dc i = dget de i).
  { rewrite (Hdc i Hi), (Hde i Hi).
    apply (f_equal (fun rows => Some (mkTens true (p_shape P i) rows))).
    apply map_ext_in. intros r0 Hr0. apply in_seq in Hr0.
    apply (vjp_chain_map outs mid i (fun o => nth r0 (t_rows (dget' d o)) []));
      [exact Hwf | | apply Hcut; exact Hi].
    intros o Ho'. destruct (Hrows o Ho') as [Hn HF]. rewrite Forall_forall in HF.
    apply HF, nth_In. unfold nrows in Hn. rewrite Hn. exact (proj2 Hr0). }
  split; [exact E | rewrite E; apply Hde; exact Hi].
Qed.

Theorem grad_comp_chain : forall outs mid ins r1 r2 r s d dc sc se de se',
  wf_prog P -> outs <> [] -> mid <> [] -> NoDup mid ->
  (forall o, In o outs -> length (flat (dget' d o)) = pnumel P o) ->
  (forall i, In i ins -> is_cut P outs mid i) ->
  run RN P A (TComp (TGrad mid ins r2) (TGrad outs mid r1)) s d = (Ok dc, sc) ->
  run RN P A (TGrad outs ins r) se d = (Ok de, se') ->
  dk dc = dk de /\ forall i, In i ins -> dget dc i = dget de i.
Proof.
  intros outs mid ins r1 r2 r s d dc sc se de se' Hwf Ho Hmid _ Hlen Hcut Hc He.
  apply run_comp_inv in Hc. destruct Hc as (d1 & s1 & Hg1 & Hg2).
  destruct (grad_vjp P A outs mid r1 s d d1 s1 Hwf Ho Hg1) as [Hdk1 Hd1].
  assert (Hd1' : forall f, In f mid ->
            flat (dget' d1 f) = vjp RN P outs (map (fun o => flat (dget' d o)) outs) f).
  { intros f Hf. unfold dget'. rewrite (Hd1 f Hf). apply flat_plain. }
  destruct (grad_vjp P A mid ins r2 s1 d1 dc sc Hwf Hmid Hg2) as [Hdkc Hdc].
  destruct (grad_vjp P A outs ins r se d de se' Hwf Ho He) as [Hdke Hde].
  split; [rewrite Hdkc, Hdk1, Hdke; reflexivity|].
  intros i Hi. rewrite (Hdc i Hi), (Hde i Hi).
  apply (f_equal (fun g => Some (plain (p_shape P i) g))).
  rewrite (map_ext_in (fun f => flat (dget' d1 f))
             (fun f => vjp RN P outs (map (fun o => flat (dget' d o)) outs) f) mid Hd1').
  apply vjp_chain_map; [exact Hwf | exact Hlen | apply Hcut; exact Hi].
Qed.

End EndToEnd.

Print Assumptions mtl_row_end_to_end.
Print Assumptions mtl_matrix_is_jacobian.
Print Assumptions mtl_deposit_end_to_end.
Print Assumptions mtl_equals_backward_on_shared.
Print Assumptions mtl_equals_backward_on_shared_same_store.
Print Assumptions mtl_constant_deposit.
Print Assumptions mtl_constant_deposit_vjp.
Print Assumptions mtl_constant_equals_backward_constant.
Print Assumptions jac_comp_chain.
Print Assumptions grad_comp_chain.
