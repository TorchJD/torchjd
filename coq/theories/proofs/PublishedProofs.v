(* The published guarantees behind three aggregators:
   M2  CAGrad with c >= 1 conflicts with no row (from the first-order optimality contract);
   M1  MGDA on two rows reaches the minimum-norm point of the segment after one step;
   M3  the unregularised dual QP of DualProj/UPGrad computes the projection on the dual cone. *)
From Coq Require Import Reals List Lia Lra.
From TJ Require Import Num Linalg NumR Agg.
From TJ.proofs Require Import LinalgR QPProofs C03Proofs C18Proofs MgdaProofs.
Import ListNotations.
Local Open Scope R_scope.

(* First-order optimality of  F(w) = <g_w, g_0>_n + c |g_0|_n |g_w|_n  over the simplex at
   w_opt, tested against the vertices e_i; everything in the geometry of the normalised
   Gramian Gn:  <g_i, g_0>_n = (Gn mean)_i,  <g_i, g_w>_n = (Gn w_opt)_i,
   <g_w, g_0>_n = w_opt . (Gn mean),  |g_v|_n = sqrt (v^T Gn v). *)
Definition cagrad_foc (Gn : list (list R)) (c : R) (w_opt : list R) : Prop :=
  let m := length Gn in
  let mean := mean_weights RN m in
  let g0n := sqrt (quadform RN Gn mean) in
  let gwn := sqrt (quadform RN Gn w_opt) in
  forall i, (i < m)%nat ->
    dotR w_opt (mvR Gn mean) + c * g0n * gwn <=
    nth i (mvR Gn mean) 0 + c * g0n * (nth i (mvR Gn w_opt) 0 / gwn).

Lemma mv_combine_rows n J w : wfmat n J -> J <> [] -> length w = length J ->
  mvR J (combineR J w) = mvR (gramR J) w.
Proof.
  intros HJ Hne Hw. rewrite (combine_wf n) by assumption. symmetry.
  apply mv_gram; assumption.
Qed.

Lemma cagrad_conflict_big n J s ne c w i : wfmat n J -> J <> [] -> length w = length J ->
  nltb RN s ne = false ->
  let Gn := normalized_gramian RN (gramR J) s ne in
  let mean := mean_weights RN (length J) in
  nleb RN ne (sqrt (quadform RN Gn w)) = true ->
  1 / (s * s) * nth i (mvR J (agg_cagrad RN s ne c w J)) 0 =
  nth i (mvR Gn mean) 0 +
  c * sqrt (quadform RN Gn mean) / sqrt (quadform RN Gn w) * nth i (mvR Gn w) 0.
Proof.
  intros HJ Hne Hlw Hsne Gn mean Hbig.
  assert (Hlm : length mean = length J) by apply length_mean.
  unfold agg_cagrad. rewrite cagrad_weights_big by exact Hbig. cbv zeta. rewrite length_gram.
  fold Gn mean.
  rewrite (mv_combine_rows n)
    by (try assumption; rewrite length_vadd; rewrite ?length_vscale; congruence).
  rewrite <- nth_vscale, <- mv_mscale, <- (normalized_gramian_big _ s ne Hsne). fold Gn.
  rewrite mv_vadd by (rewrite length_vscale; congruence). rewrite mv_vscale.
  rewrite nth_vadd by (rewrite length_vscale, !length_mv; reflexivity). rewrite nth_vscale.
  reflexivity.
Qed.

(* For a symmetric positive semi-definite form the first-order condition at vertex i bounds
   (M a)_i + c |a| / |w| (M w)_i from below by <w, a> + c |a| |w|, which Cauchy-Schwarz and c >= 1
   make non-negative. *)
Lemma foc_vertex_nonneg m M a w c i : symm m M -> psd m M -> length a = m -> length w = m ->
  1 <= c -> 0 < sqrt (qf M w) ->
  bil M w a + c * sqrt (qf M a) * sqrt (qf M w) <=
  nth i (mvR M a) 0 + c * sqrt (qf M a) * (nth i (mvR M w) 0 / sqrt (qf M w)) ->
  0 <= nth i (mvR M a) 0 + c * sqrt (qf M a) / sqrt (qf M w) * nth i (mvR M w) 0.
Proof.
  intros Hsym Hpsd Hla Hlw Hc Hgw Hfoc.
  pose proof (sqrt_sqrt _ (Hpsd a Hla)) as Ha2. pose proof (sqrt_sqrt _ (Hpsd w Hlw)) as Hw2.
  set (ga := sqrt (qf M a)) in *. set (gw := sqrt (qf M w)) in *.
  pose proof (Rmult_le_pos _ _ (Rlt_le _ _ Hgw) (sqrt_pos (qf M a))) as Hprod. fold ga in Hprod.
  assert (Hcs : - (gw * ga) <= bil M w a).
  { apply Rsqr_neg_pos_le_0; [|exact Hprod]. unfold Rsqr.
    replace (gw * ga * (gw * ga)) with ((gw * gw) * (ga * ga)) by ring.
    rewrite Ha2, Hw2. apply (bil_cauchy_schwarz m); assumption. }
  pose proof (Rmult_le_pos (c - 1) _ ltac:(lra) Hprod) as Hc1.
  replace (c * ga / gw * nth i (mvR M w) 0)
    with (c * ga * (nth i (mvR M w) 0 / gw)) by (unfold Rdiv; ring).
  lra.
Qed.

(* The conflict of the output with row i, measured in the normalised geometry, is the quantity
   that the contract at vertex i bounds. *)
Theorem cagrad_c_ge_1_nonconflicting n J s ne c w_opt :
  wfmat n J -> J <> [] -> length w_opt = length J ->
  0 < s -> nltb RN s ne = false -> 0 < ne -> 1 <= c ->
  let Gn := normalized_gramian RN (gramR J) s ne in
  nleb RN ne (sqrt (quadform RN Gn w_opt)) = true ->
  cagrad_foc Gn c w_opt ->
  forall i, (i < length J)%nat -> 0 <= nth i (mvR J (agg_cagrad RN s ne c w_opt J)) 0.
Proof.
  intros HJ Hne Hlw Hs Hsne Hnepos Hc Gn Hbig Hfoc i Hi.
  apply (Rmult_le_reg_l (1 / (s * s))); [apply c_pos; exact Hs|].
  rewrite Rmult_0_r, (cagrad_conflict_big n) by assumption. cbv zeta. fold Gn.
  pose proof (length_normalized_gram J s ne) as HlGn. fold Gn in HlGn.
  unfold cagrad_foc in Hfoc. cbv zeta in Hfoc. rewrite HlGn in Hfoc.
  apply (foc_vertex_nonneg (length J) Gn).
  - exact (symm_normalized n J s ne HJ Hsne).
  - exact (psd_normalized n J s ne HJ Hs Hsne).
  - apply length_mean.
  - exact Hlw.
  - exact Hc.
  - change (qf Gn w_opt) with (quadform RN Gn w_opt). rn. apply Rleb_true in Hbig. lra.
  - exact (Hfoc i Hi).
Qed.

(* below the threshold the output is the zero vector *)
Theorem cagrad_below_threshold_nonconflicting n J s ne c w_opt : wfmat n J -> J <> [] ->
  nleb RN ne (sqrt (quadform RN (normalized_gramian RN (gramR J) s ne) w_opt)) = false ->
  forall i, nth i (mvR J (agg_cagrad RN s ne c w_opt J)) 0 = 0.
Proof.
  intros HJ Hne Hsmall i. rewrite (cagrad_small n J s ne c w_opt HJ Hne Hsmall), mv_vzero.
  apply nth_vzero.
Qed.

Lemma sqrt_tangent r Y : 0 < r -> 0 <= Y -> sqrt Y <= r + (Y - r * r) / (2 * r).
Proof.
  intros Hr HY. set (s := sqrt Y).
  assert (Hs : s * s = Y) by (apply sqrt_sqrt; exact HY).
  rewrite <- Hs.
  replace (r + (s * s - r * r) / (2 * r)) with (s + (s - r) * (s - r) / (2 * r)) by (field; lra).
  assert (0 <= (s - r) * (s - r) / (2 * r)).
  { apply Rmult_le_pos; [apply Rle_0_sqr | apply Rlt_le, Rinv_0_lt_compat; lra]. }
  lra.
Qed.

(* L(t) + K sqrt (Q(t)) with L linear and Q = qseg Q0 yi ci is minimal at t = 0; bounding the
   square root by its tangent at Q0 = r^2 leaves a quadratic to which first_order_real applies *)
Lemma conic_real L0 bi Q0 yi ci K r : 0 < r -> r * r = Q0 -> 0 <= K ->
  (forall t, 0 < t <= 1 ->
     0 <= qseg Q0 yi ci t /\
     L0 + K * r <= (1 - t) * L0 + t * bi + K * sqrt (qseg Q0 yi ci t)) ->
  L0 + K * r <= bi + K * (yi / r).
Proof.
  intros Hr HQ0 HK H.
  set (B := ((bi - L0) + K * ((yi - Q0) / r)) / 2).
  set (Q := K * ((Q0 - 2 * yi + ci) / (2 * r))).
  assert (HB : 0 <= B).
  { apply (first_order_real B Q). intros t Ht. destruct (H t Ht) as [HQt Hle].
    pose proof (Rmult_le_compat_l K _ _ HK (sqrt_tangent r _ Hr HQt)) as Hs'.
    assert (E : 2 * t * B + t * t * Q =
                t * (bi - L0) + K * ((qseg Q0 yi ci t - r * r) / (2 * r))).
    { unfold B, Q, qseg. rewrite HQ0. field. lra. }
    rewrite E. lra. }
  assert (E : bi + K * (yi / r) - (L0 + K * r) = 2 * B).
  { unfold B. rewrite <- HQ0. field. lra. }
  lra.
Qed.

(* if w minimises  v |-> <v, b> + K sqrt (v^T M v)  over the simplex and w^T M w > 0, then the
   first-order condition holds against every vertex *)
Lemma conic_foc m M b K w i : length M = m -> symm m M -> psd m M -> length b = m -> 0 <= K ->
  simplex m w ->
  (forall v, simplex m v ->
     dotR w b + K * sqrt (qf M w) <= dotR v b + K * sqrt (qf M v)) ->
  0 < sqrt (qf M w) -> (i < m)%nat ->
  dotR w b + K * sqrt (qf M w) <= nth i b 0 + K * (nth i (mvR M w) 0 / sqrt (qf M w)).
Proof.
  intros HM Hsym Hpsd Hb HK Hw Hmin Hpos Hi.
  set (e := onehotR m i 1).
  assert (Hle : length e = m) by apply length_onehot.
  pose proof (proj1 Hw) as Hlw.
  assert (HQ0 : sqrt (qf M w) * sqrt (qf M w) = qf M w) by (apply sqrt_sqrt, Hpsd; exact Hlw).
  apply (conic_real _ _ (qf M w) _ (qf M e)); [exact Hpos | exact HQ0 | exact HK |].
  intros t Ht.
  set (wt := vaddR (vscaleR (1 - t) w) (vscaleR t e)).
  assert (Hwt : simplex m wt).
  { apply simplex_convex; [lra | exact Hw | apply simplex_onehot; exact Hi]. }
  assert (EL : dotR wt b = (1 - t) * dotR w b + t * nth i b 0).
  { unfold wt. rewrite dot_vadd_l by (rewrite !length_vscale; congruence).
    rewrite !dot_vscale_l. unfold e. rewrite dot_onehot by assumption. lra. }
  assert (EQ : qf M wt = qseg (qf M w) (nth i (mvR M w) 0) (qf M e) t).
  { unfold wt. rewrite (qf_segment m) by assumption. rewrite (Hsym w e Hlw Hle).
    unfold e. rewrite (bil_onehot_l m) by assumption. reflexivity. }
  rewrite <- EQ, <- EL. split; [apply Hpsd; apply Hwt | apply Hmin; exact Hwt].
Qed.

(* w_opt is an optimal point of the conic program of CAGrad, in Gramian form *)
Definition cagrad_opt (Gn : list (list R)) (c : R) (w_opt : list R) : Prop :=
  let m := length Gn in
  let mean := mean_weights RN m in
  let g0n := sqrt (quadform RN Gn mean) in
  let F := fun w => dotR w (mvR Gn mean) + c * g0n * sqrt (quadform RN Gn w) in
  simplex m w_opt /\ forall w, simplex m w -> F w_opt <= F w.

(* the contract follows from genuine optimality of the conic program *)
Theorem cagrad_opt_foc n J s ne c w_opt : wfmat n J -> 0 < s -> nltb RN s ne = false ->
  0 <= c ->
  let Gn := normalized_gramian RN (gramR J) s ne in
  0 < sqrt (quadform RN Gn w_opt) ->
  cagrad_opt Gn c w_opt -> cagrad_foc Gn c w_opt.
Proof.
  intros HJ Hs Hsne Hc Gn Hpos [Hsx Hmin]. cbv zeta in Hmin.
  set (m := length J).
  pose proof (length_normalized_gram J s ne) as HlGn. fold Gn m in HlGn.
  rewrite HlGn in Hsx, Hmin.
  unfold cagrad_foc. cbv zeta. rewrite HlGn. intros i Hi.
  set (mean := mean_weights RN m) in *.
  set (g0n := sqrt (quadform RN Gn mean)) in *.
  assert (Hg0n : 0 <= c * g0n) by (apply Rmult_le_pos; [exact Hc | apply sqrt_pos]).
  assert (Hlb : length (mvR Gn mean) = m) by (rewrite length_mv; exact HlGn).
  exact (conic_foc m Gn (mvR Gn mean) (c * g0n) w_opt i HlGn
           (symm_normalized n J s ne HJ Hsne) (psd_normalized n J s ne HJ Hs Hsne)
           Hlb Hg0n Hsx Hmin Hpos Hi).
Qed.

(* M2 from genuine optimality *)
Corollary cagrad_c_ge_1_nonconflicting_opt n J s ne c w_opt :
  wfmat n J -> J <> [] -> 0 < s -> nltb RN s ne = false -> 0 < ne -> 1 <= c ->
  let Gn := normalized_gramian RN (gramR J) s ne in
  nleb RN ne (sqrt (quadform RN Gn w_opt)) = true ->
  cagrad_opt Gn c w_opt ->
  forall i, (i < length J)%nat -> 0 <= nth i (mvR J (agg_cagrad RN s ne c w_opt J)) 0.
Proof.
  intros HJ HJne Hs Hsne Hne Hc Gn Hbig Hopt.
  pose proof (length_normalized_gram J s ne) as HlGn. fold Gn in HlGn.
  assert (Hlw : length w_opt = length J).
  { destruct Hopt as [Hsx _]. cbv zeta in Hsx. rewrite HlGn in Hsx. exact (proj1 Hsx). }
  assert (Hpos : 0 < sqrt (quadform RN Gn w_opt)) by (rn; apply Rleb_true in Hbig; lra).
  apply (cagrad_c_ge_1_nonconflicting n J s ne c w_opt); try assumption.
  apply (cagrad_opt_foc n J s ne c w_opt); try assumption. lra.
Qed.

(* the quadratic t |-> qseg p q r t seen from the midpoint towards the endpoint t = 1 *)
Lemma qseg_from_midpoint p q r u :
  qseg ((p + 2 * q + r) / 4) ((q + r) / 2) r u = qseg p q r ((1 + u) / 2).
Proof. unfold qseg. field. Qed.

(* When r <= p the reflection t -> 1 - t does not increase the quadratic on [0, 1/2], so the
   line search from the midpoint towards t = 1 finds the minimum over the whole of [0,1]. *)
Lemma two_rows_real p q r : r <= p ->
  let g := fw_gamma ((q + r) / 2) ((p + 2 * q + r) / 4) r in
  0 <= (1 + g) / 2 <= 1 /\ forall t, 0 <= t <= 1 -> qseg p q r ((1 + g) / 2) <= qseg p q r t.
Proof.
  intros Hrp g.
  pose proof (fw_gamma_range ((q + r) / 2) ((p + 2 * q + r) / 4) r) as Hg. fold g in Hg.
  split; [lra|]. intros t Ht.
  assert (Hhalf : forall u, 1 / 2 <= u <= 1 -> qseg p q r ((1 + g) / 2) <= qseg p q r u).
  { intros u Hu.
    pose proof (fw_gamma_opt ((q + r) / 2) ((p + 2 * q + r) / 4) r (2 * u - 1)
                  ltac:(lra) ltac:(lra)) as H.
    rewrite !qseg_from_midpoint in H. replace ((1 + (2 * u - 1)) / 2) with u in H by lra.
    exact H. }
  destruct (Rle_dec (1 / 2) t) as [Hle|Hlt]; [apply Hhalf; lra|].
  apply Rle_trans with (1 := Hhalf (1 - t) ltac:(lra)).
  pose proof (Rmult_le_pos (1 - 2 * t) (p - r) ltac:(lra) ltac:(lra)) as P.
  unfold qseg. replace (1 - (1 - t)) with t by ring. lra.
Qed.

(* One Frank-Wolfe step from the midpoint on a symmetric 2 x 2 matrix [[p q] [q r]] lands on
   [1 - l; l] where l minimises the quadratic t |-> (1-t)^2 p + 2 t (1-t) q + t^2 r on [0,1]. *)
Lemma mgda_step_2x2 p q r :
  let G := [[p; q]; [q; r]] in
  exists l, fst (mgda_step RN G [1/2; 1/2]) = [1 - l; l] /\ 0 <= l <= 1 /\
    forall t, 0 <= t <= 1 -> qseg p q r l <= qseg p q r t.
Proof.
  intros G. rewrite mgda_step_eq. cbv zeta. cbn [fst].
  replace (dotR [1/2;1/2] (mvR G [1/2;1/2])) with ((p + 2 * q + r) / 4) by (cbn; lra).
  change (mvR G [1/2;1/2]) with [p * (1/2) + (q * (1/2) + 0); q * (1/2) + (r * (1/2) + 0)].
  change (length [1/2;1/2]) with 2%nat.
  set (x := p * (1/2) + (q * (1/2) + 0)). set (y := q * (1/2) + (r * (1/2) + 0)).
  change (argmin RN [x; y]) with (if Rltb y x then 1%nat else 0%nat).
  destruct (Rltb y x) eqn:E.
  - apply Rltb_true in E. change (onehotR 2 1 1) with [0; 1].
    replace (dotR [1/2;1/2] (mvR G [0;1])) with ((q + r) / 2) by (cbn; lra).
    replace (dotR [0;1] (mvR G [0;1])) with r by (cbn; lra).
    assert (Hrp : r <= p) by (unfold x, y in E; lra).
    destruct (two_rows_real p q r Hrp) as [Hl Hmin]. cbv zeta in Hl, Hmin.
    set (g := fw_gamma _ _ _) in *. exists ((1 + g) / 2).
    split; [cbn; f_equal; [|f_equal]; lra|]. split; [exact Hl | exact Hmin].
  - apply Rltb_false in E. change (onehotR 2 0 1) with [1; 0].
    replace (dotR [1/2;1/2] (mvR G [1;0])) with ((q + p) / 2) by (cbn; lra).
    replace (dotR [1;0] (mvR G [1;0])) with p by (cbn; lra).
    replace ((p + 2 * q + r) / 4) with ((r + 2 * q + p) / 4) by lra.
    assert (Hpr : p <= r) by (unfold x, y in E; lra).
    destruct (two_rows_real r q p Hpr) as [Hl Hmin]. cbv zeta in Hl, Hmin.
    set (g := fw_gamma _ _ _) in *. exists (1 - (1 + g) / 2).
    split; [cbn; f_equal; [|f_equal]; lra|]. split; [lra|]. intros t Ht.
    rewrite !(qseg_swap p q r).
    replace (1 - (1 - (1 + g) / 2)) with ((1 + g) / 2) by lra. apply Hmin. lra.
Qed.

Lemma quad2 p q r t : qf [[p; q]; [q; r]] [1 - t; t] = qseg p q r t.
Proof. unfold qseg. cbn. ring. Qed.

Lemma gram2 g1 g2 : gramR [g1; g2] = [[dotR g1 g1; dotR g1 g2]; [dotR g1 g2; dotR g2 g2]].
Proof. unfold gram. cbn [map]. rewrite (dot_comm g2 g1). reflexivity. Qed.

Lemma mean2 : mean_weights RN 2 = [1 / 2; 1 / 2].
Proof. unfold mean_weights. cbn. replace (1 + 1) with 2 by lra. reflexivity. Qed.

Lemma wfmat2 n g1 g2 : length g1 = n -> length g2 = n -> wfmat n [g1; g2].
Proof. intros H1 H2. repeat constructor; assumption. Qed.

(* M1, one step: the first iterate is a minimum-norm point of the segment [g1, g2] *)
Theorem mgda_two_rows_one_step n g1 g2 : length g1 = n -> length g2 = n ->
  let J := [g1; g2] in
  hull_min n J (fst (mgda_step RN (gramR J) (mean_weights RN 2))).
Proof.
  intros H1 H2 J. apply hull_min_qf; [exact (wfmat2 n g1 g2 H1 H2)|].
  unfold J. rewrite gram2, mean2.
  destruct (mgda_step_2x2 (dotR g1 g1) (dotR g1 g2) (dotR g2 g2)) as (l & El & Hl & Hmin).
  cbv zeta in El. rewrite El.
  split; [exact (simplex_pair l Hl)|]. intros w Hw.
  destruct (simplex2 w Hw) as (t & -> & Ht). rewrite !quad2. exact (Hmin t Ht).
Qed.

(* M1, whole run: with at least one iteration the returned weights are a minimum-norm point *)
Theorem mgda_two_rows_hull_min n g1 g2 eps iters : length g1 = n -> length g2 = n ->
  (1 <= iters)%nat ->
  let J := [g1; g2] in
  hull_min n J (mgda_weights RN (gramR J) eps iters).
Proof.
  intros H1 H2 Hit J.
  apply mgda_weights_hull_min; [exact (wfmat2 n g1 g2 H1 H2) | exact Hit |].
  exact (mgda_two_rows_one_step n g1 g2 H1 H2).
Qed.

Lemma hull_min_same_norm n J a b : hull_min n J a -> hull_min n J b ->
  dotR (vmR n a J) (vmR n a J) = dotR (vmR n b J) (vmR n b J).
Proof. intros [Ha Hma] [Hb Hmb]. apply Rle_antisym; [apply Hma; exact Hb | apply Hmb; exact Ha]. Qed.

(* M1, vector form: for iters >= 1 the output of MGDA on two rows IS the point reached after
   the first step, and has the minimum norm over the segment *)
Theorem mgda_two_rows_output n g1 g2 eps iters : length g1 = n -> length g2 = n ->
  (1 <= iters)%nat ->
  let J := [g1; g2] in
  let x1 := vmR n (fst (mgda_step RN (gramR J) (mean_weights RN 2))) J in
  agg_mgda RN eps iters J = x1 /\
  dotR (agg_mgda RN eps iters J) (agg_mgda RN eps iters J) = dotR x1 x1 /\
  (forall t, 0 <= t <= 1 ->
     dotR x1 x1 <= dotR (vaddR (vscaleR (1 - t) g1) (vscaleR t g2))
                        (vaddR (vscaleR (1 - t) g1) (vscaleR t g2))).
Proof.
  intros H1 H2 Hit J x1. pose proof (wfmat2 n g1 g2 H1 H2) as HJ. fold J in HJ.
  pose proof (mgda_two_rows_one_step n g1 g2 H1 H2) as Hstep. cbv zeta in Hstep. fold J in Hstep.
  pose proof (mgda_two_rows_hull_min n g1 g2 eps iters H1 H2 Hit) as Hrun. cbv zeta in Hrun.
  fold J in Hrun.
  assert (E : agg_mgda RN eps iters J = x1).
  { unfold agg_mgda. rewrite (combine_wf n) by (try exact HJ; discriminate).
    apply hull_min_unique; assumption. }
  split; [exact E|]. split; [rewrite E; reflexivity|].
  intros t Ht.
  pose proof (proj2 Hstep _ (simplex_pair t Ht)) as Hmin. fold x1 in Hmin.
  apply Rle_trans with (1 := Hmin). apply Req_le.
  unfold J. cbn [vm]. rewrite (vadd_vzero_r (vscaleR t g2)) by (rewrite length_vscale; exact H2).
  reflexivity.
Qed.

Corollary mgda_two_rows_nonconflicting n g1 g2 eps iters : length g1 = n -> length g2 = n ->
  (1 <= iters)%nat ->
  let x := agg_mgda RN eps iters [g1; g2] in
  0 <= dotR g1 x /\ 0 <= dotR g2 x.
Proof.
  intros H1 H2 Hit x. pose proof (wfmat2 n g1 g2 H1 H2) as HJ.
  pose proof (mgda_two_rows_hull_min n g1 g2 eps iters H1 H2 Hit) as Hrun. cbv zeta in Hrun.
  assert (Ex : x = vmR n (mgda_weights RN (gramR [g1; g2]) eps iters) [g1; g2]).
  { unfold x, agg_mgda. apply (combine_wf n); [exact HJ | discriminate]. }
  pose proof (dot_self_nonneg x) as Hp.
  pose proof (hull_min_nonconflicting n _ _ 0 HJ Hrun ltac:(cbn; lia)) as G1.
  pose proof (hull_min_nonconflicting n _ _ 1 HJ Hrun ltac:(cbn; lia)) as G2.
  rewrite <- Ex in G1, G2. cbn [nth] in G1, G2. split; lra.
Qed.

Lemma nonneg_vsub_feasible u w : feasible u w -> nonneg (vsubR w u).
Proof.
  induction 1 as [|a b U W Hab HUW IH]; [constructor|]. cbn [vsub]. constructor; [rn; lra | exact IH].
Qed.

Definition dual_cone (J : list (list R)) (y : list R) : Prop := nonneg (mvR J y).

Lemma dual_cone_rows J y : dual_cone J y <->
  forall i, (i < length J)%nat -> 0 <= dotR (nth i J []) y.
Proof.
  unfold dual_cone, nonneg. rewrite Forall_nth. rewrite length_mv. split.
  - intros H i Hi. rewrite <- nth_mv by exact Hi. apply H. exact Hi.
  - intros H i d Hi. rewrite (nth_indep _ d 0) by (rewrite length_mv; exact Hi).
    rewrite nth_mv by exact Hi. apply H. exact Hi.
Qed.

Theorem dual_cone_projection n J u w : wfmat n J -> is_min (length J) (gramR J) u w ->
  let x := vmR n w J in
  let p := vmR n u J in
  dual_cone J x /\
  (forall y, length y = n -> dual_cone J y -> 0 <= dotR (vsubR x p) (vsubR y x)) /\
  (forall y, length y = n -> dual_cone J y ->
     dotR (vsubR x p) (vsubR x p) <= dotR (vsubR y p) (vsubR y p)).
Proof.
  intros HJ Hmin x p.
  set (m := length J) in *. set (G := gramR J) in *.
  assert (HG : length G = m) by apply length_gram.
  assert (Hsym : symm m G) by (apply (symm_gram n); exact HJ).
  pose proof Hmin as (Hw & Hf & _).
  assert (Hu : length u = m) by (rewrite (feasible_length _ _ Hf); exact Hw).
  assert (Hlx : length x = n) by (apply length_vm; exact HJ).
  assert (Hlp : length p = n) by (apply length_vm; exact HJ).
  assert (Hcone : dual_cone J x).
  { apply dual_cone_rows. intros i Hi. fold m in Hi.
    rewrite <- nth_mv by exact Hi. unfold x. rewrite <- (mv_gram n) by assumption. fold G.
    apply (min_grad_nonneg m G u); assumption. }
  assert (Hvar : forall y, length y = n -> dual_cone J y -> 0 <= dotR (vsubR x p) (vsubR y x)).
  { intros y Hy Hyc.
    pose proof (min_variational m G u w u Hsym Hmin Hu (feasible_refl u)) as H1.
    unfold bil in H1. rewrite dot_vsub_l in H1 by congruence.
    pose proof (dot_nonneg _ _ (nonneg_vsub_feasible u w Hf) Hyc) as H2.
    rewrite dot_vsub_l in H2 by congruence.
    rewrite dot_vsub_l by congruence. rewrite !dot_vsub_r by congruence.
    assert (Exy : dotR x y = dotR w (mvR J y)) by (unfold x; apply dot_vm; assumption).
    assert (Epy : dotR p y = dotR u (mvR J y)) by (unfold p; apply dot_vm; assumption).
    assert (Exx : dotR x x = dotR w (mvR G w)) by (unfold x, G; symmetry; apply quad_gram; assumption).
    assert (Epx : dotR p x = dotR u (mvR G w)) by (unfold p, x, G; symmetry; apply bil_gram; assumption).
    lra. }
  split; [exact Hcone|]. split; [exact Hvar|].
  intros y Hy Hyc. apply variational_closest; [congruence | congruence | exact (Hvar y Hy Hyc)].
Qed.

Lemma is_min_unregularised J s ne u w : 0 < s -> nltb RN s ne = false ->
  is_min (length J) (reg_norm_gramian RN (gramR J) s ne 0) u w ->
  is_min (length J) (gramR J) u w.
Proof.
  intros Hs Hne (Hw & Hf & Hmin). split; [exact Hw|]. split; [exact Hf|].
  intros v Hv Hfv. specialize (Hmin v Hv Hfv). unfold qf in *.
  rewrite !(bil_M J s ne 0 Hne) in Hmin by assumption. pose proof (c_pos s Hs) as Hc.
  apply (Rmult_le_reg_l (1 / (s * s))); [exact Hc | lra].
Qed.

(* the same for the model: DualProj with reg_eps = 0 returns the projection of u . J (the mean
   row for the default preference) on the dual cone, whenever the QP oracle is correct *)
Theorem dualproj_unregularised_projection n J s ne pref qp :
  wfmat n J -> J <> [] -> 0 < s -> nltb RN s ne = false -> pref_ok pref (length J) ->
  let m := length J in
  let u := pref_u pref m in
  let M := reg_norm_gramian RN (gramR J) s ne 0 in
  is_min m M u (qp M u) ->
  let x := vmR n (qp M u) J in
  let p := vmR n u J in
  agg_dualproj RN qp pref s ne 0 J = Ok x /\
  dual_cone J x /\
  (forall y, length y = n -> dual_cone J y -> 0 <= dotR (vsubR x p) (vsubR y x)) /\
  (forall y, length y = n -> dual_cone J y ->
     dotR (vsubR x p) (vsubR x p) <= dotR (vsubR y p) (vsubR y p)).
Proof.
  intros HJ HJne Hs Hne Hpref m u M Hq x p. split.
  - unfold agg_dualproj. rewrite pref_weights_ok by exact Hpref. cbn [rbind].
    unfold dualproj_weights. rewrite (combine_wf n) by assumption. reflexivity.
  - apply (dual_cone_projection n J u (qp M u) HJ).
    apply (is_min_unregularised J s ne); assumption.
Qed.

Print Assumptions cagrad_c_ge_1_nonconflicting.
Print Assumptions cagrad_below_threshold_nonconflicting.
Print Assumptions cagrad_opt_foc.
Print Assumptions cagrad_c_ge_1_nonconflicting_opt.
Print Assumptions mgda_step_2x2.
Print Assumptions mgda_two_rows_one_step.
Print Assumptions mgda_two_rows_hull_min.
Print Assumptions mgda_two_rows_output.
Print Assumptions mgda_two_rows_nonconflicting.
Print Assumptions dual_cone_projection.
Print Assumptions dualproj_unregularised_projection.
