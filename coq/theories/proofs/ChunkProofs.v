(* The plan of engine sweeps for m rows and chunk size k (chunk_plan): ceil(m/k) contiguous
   chunks that cover the rows in order.  What depends on the number of chunks rests on
   ceil_div_bounds (n = ceil(m/k) is at least 1, (n-1)*k < m and m <= n*k). *)
From Coq Require Import List Bool Arith Lia.
From TJ Require Import Chunk.
Import ListNotations.

Lemma valid_chunk_pos m k : valid_chunk k = true -> 1 <= m -> 1 <= max_chunk m k.
Proof.
  intros Hk Hm. unfold max_chunk. destruct k as [k'|]; [|lia].
  unfold valid_chunk in Hk. apply Nat.ltb_lt in Hk. lia.
Qed.

Lemma ceil_div_bounds m k : 1 <= k -> 1 <= m ->
  1 <= ceil_div m k /\ (ceil_div m k - 1) * k < m /\ m <= ceil_div m k * k.
Proof.
  intros Hk Hm. unfold ceil_div.
  pose proof (Nat.div_mod (m + k - 1) k ltac:(lia)) as Hdm.
  pose proof (Nat.mod_upper_bound (m + k - 1) k ltac:(lia)) as Hub.
  set (q := (m + k - 1) / k) in *. set (r := (m + k - 1) mod k) in *.
  assert (Hq : 1 <= q).
  { destruct q as [|q']; [|lia]. rewrite Nat.mul_0_r in Hdm. lia. }
  split; [exact Hq|].
  destruct q as [|q']; [lia|]. cbn [Nat.sub]. rewrite Nat.sub_0_r.
  split; nia.
Qed.

Lemma concat_full_chunks mc n :
  concat (map (fun i => seq (i * mc) mc) (seq 0 n)) = seq 0 (n * mc).
Proof.
  induction n as [|n IH]; [reflexivity|].
  rewrite seq_S, map_app, concat_app, IH. cbn [map concat Nat.add].
  rewrite app_nil_r. replace (S n * mc) with (n * mc + mc) by lia.
  rewrite seq_app. reflexivity.
Qed.

Lemma plan_rows_cover m k retain : valid_chunk k = true -> 1 <= m ->
  concat (map chunk_rows (chunk_plan m k retain)) = seq 0 m.
Proof.
  intros Hk Hm. unfold chunk_plan.
  set (mc := max_chunk m k).
  assert (Hmc : 1 <= mc) by (apply valid_chunk_pos; assumption).
  destruct (ceil_div_bounds m mc Hmc Hm) as (Hn & Hlo & Hhi).
  set (n := ceil_div m mc) in *.
  rewrite map_app, concat_app, map_map. unfold chunk_rows. cbn [map concat c_start c_len].
  rewrite app_nil_r.
  rewrite concat_full_chunks.
  replace m with ((n - 1) * mc + (m - (n - 1) * mc)) at 2 by lia.
  rewrite seq_app. reflexivity.
Qed.

Lemma sum_c_len_cover (plan : list chunk) :
  fold_right Nat.add 0 (map c_len plan) = length (concat (map chunk_rows plan)).
Proof.
  induction plan as [|c plan IH]; [reflexivity|].
  cbn [map fold_right concat]. rewrite app_length, <- IH. unfold chunk_rows at 1.
  rewrite seq_length. reflexivity.
Qed.

Lemma plan_rows_total m k retain : valid_chunk k = true -> 1 <= m ->
  fold_right Nat.add 0 (map c_len (chunk_plan m k retain)) = m.
Proof.
  intros Hk Hm. rewrite sum_c_len_cover, (plan_rows_cover m k retain Hk Hm). apply seq_length.
Qed.

Lemma plan_count m k retain : valid_chunk k = true -> 1 <= m ->
  length (chunk_plan m k retain) = ceil_div m (max_chunk m k).
Proof.
  intros Hk Hm. unfold chunk_plan. rewrite app_length, map_length, seq_length. cbn [length].
  assert (Hmc : 1 <= max_chunk m k) by (apply valid_chunk_pos; assumption).
  destruct (ceil_div_bounds m _ Hmc Hm) as (Hn & _ & _). lia.
Qed.

Lemma plan_sizes m k retain c : valid_chunk k = true -> 1 <= m ->
  In c (chunk_plan m k retain) ->
  1 <= c_len c /\ c_len c <= max_chunk m k /\ c_start c + c_len c <= m /\
  c_batched c = negb (c_len c =? 1).
Proof.
  intros Hk Hm Hin. unfold chunk_plan in Hin.
  set (mc := max_chunk m k) in *.
  assert (Hmc : 1 <= mc) by (apply valid_chunk_pos; assumption).
  destruct (ceil_div_bounds m mc Hmc Hm) as (Hn & Hlo & Hhi).
  set (n := ceil_div m mc) in *.
  apply in_app_or in Hin. destruct Hin as [Hin|Hin].
  - apply in_map_iff in Hin. destruct Hin as (i & <- & Hi). apply in_seq in Hi.
    cbn [c_len c_start c_batched]. repeat split; try lia; try reflexivity.
    assert ((i + 1) * mc <= (n - 1) * mc) by (apply Nat.mul_le_mono_r; lia). lia.
  - destruct Hin as [<-|[]]. cbn [c_len c_start c_batched].
    assert (n * mc = (n - 1) * mc + mc) as E.
    { destruct n as [|n']; [lia|]. cbn [Nat.sub]. rewrite Nat.sub_0_r. cbn [Nat.mul]. lia. }
    repeat split; try lia; try reflexivity.
Qed.

Lemma plan_retain_flags m k retain :
  exists front last, chunk_plan m k retain = front ++ [last] /\
    Forall (fun c => c_retain c = true) front /\ c_retain last = retain.
Proof.
  unfold chunk_plan. eexists _, _. split; [reflexivity|]. split; [|reflexivity].
  apply Forall_forall. intros c Hin. apply in_map_iff in Hin. destruct Hin as (i & <- & _).
  reflexivity.
Qed.

Lemma plan_flags m k retain :
  Forall (fun c => c_retain c = true \/ c_retain c = retain) (chunk_plan m k retain).
Proof.
  destruct (plan_retain_flags m k retain) as (f & l & -> & HF & Hl).
  apply Forall_app. split.
  - eapply Forall_impl; [|exact HF]. intros c Hc; left; exact Hc.
  - constructor; [right; exact Hl | constructor].
Qed.

Lemma plan_sequential_k1 m retain c : 1 <= m ->
  In c (chunk_plan m (Some 1) retain) -> c_batched c = false /\ c_len c = 1.
Proof.
  intros Hm Hin.
  destruct (plan_sizes m (Some 1) retain c eq_refl Hm Hin) as (H1 & H2 & _ & Hb).
  cbn [max_chunk] in H2. assert (c_len c = 1) as E by lia. rewrite Hb, E. split; reflexivity.
Qed.

Lemma plan_single_row k retain c : valid_chunk k = true ->
  In c (chunk_plan 1 k retain) -> c_batched c = false.
Proof.
  intros Hk Hin.
  destruct (plan_sizes 1 k retain c Hk (le_n 1) Hin) as (H1 & _ & H3 & Hb).
  assert (c_len c = 1) as E by lia. rewrite Hb, E. reflexivity.
Qed.

Lemma plan_single m k retain : 1 <= m -> m <= max_chunk m k ->
  chunk_plan m k retain = [mkChunk 0 m (negb (m =? 1)) retain].
Proof.
  intros Hm Hk. unfold chunk_plan.
  assert (E : ceil_div m (max_chunk m k) = 1).
  { destruct (ceil_div_bounds m (max_chunk m k) ltac:(lia) Hm) as (H1 & H2 & H3).
    destruct (ceil_div m (max_chunk m k)) as [|[|n]]; lia. }
  rewrite E. cbn. rewrite Nat.sub_0_r. reflexivity.
Qed.

Lemma plan_none_single m retain : 1 <= m ->
  chunk_plan m None retain = [mkChunk 0 m (negb (m =? 1)) retain].
Proof. intros Hm. apply plan_single; [exact Hm | apply le_n]. Qed.

Lemma plan_large_k m k retain : 1 <= m -> m <= k ->
  chunk_plan m (Some k) retain = [mkChunk 0 m (negb (m =? 1)) retain].
Proof. intros Hm Hk. apply plan_single; assumption. Qed.

Lemma run_plan_rows {A} (f : nat -> A) m k retain : valid_chunk k = true -> 1 <= m ->
  run_plan f (chunk_plan m k retain) = map f (seq 0 m).
Proof.
  intros Hk Hm. unfold run_plan.
  rewrite <- (plan_rows_cover m k retain Hk Hm).
  rewrite concat_map, map_map. reflexivity.
Qed.

(* also for an empty batch: its plan is one chunk of no rows *)
Lemma run_plan_rows_any {A} (f : nat -> A) m k retain : valid_chunk k = true ->
  run_plan f (chunk_plan m k retain) = map f (seq 0 m).
Proof.
  intros Hk. destruct m as [|m]; [|apply run_plan_rows; [exact Hk | lia]].
  assert (Hn : ceil_div 0 (max_chunk 0 k) = 0).
  { unfold ceil_div. destruct (max_chunk 0 k) as [|mc]; [reflexivity|]. apply Nat.div_small. lia. }
  unfold run_plan, chunk_plan. cbv zeta. rewrite Hn. reflexivity.
Qed.
