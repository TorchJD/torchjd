(* retain_graph / freed-graph discipline of the engine runs issued by autojac: the chunked
   differentiation never sabotages itself (all chunks but the last retain the graph),
   retain_graph=True keeps the graph fully usable, and after an accepted backward / mtl_backward
   the graph is freed exactly as after the corresponding plain engine runs.

   The engine footprint of a successful stage — which runs had to be possible, what they freed,
   what they logged — is computed once per stage; the theorems about s_freed and s_log here, in
   SweepCountProofs.v and in C13MtlProofs.v are its projections. *)
From Coq Require Import List Bool Arith.
From TJ Require Import Num Chunk Autojac.
From TJ.proofs Require Import ChunkProofs AutojacBasics EntrySpec C20Proofs.
Import ListNotations.

Section C13.
Context {T : Type} (N : Num T) (P : prog T) (A : list (list T) -> res (list T)).

Definition saved_exec (outs ins : list tid) : list nid := filter (p_saved P) (exec_nodes P outs ins).
(* would one engine run from outs to ins succeed in state s?  depends on s only through s_freed *)
Definition sweep_ok (s : @store T) (outs ins : list tid) : bool :=
  forallb (p_req P) outs && forallb (p_req P) ins
  && negb (existsb (fun n => mem n (s_freed s)) (saved_exec outs ins)).

(* the same test on the freed list: [sweep_ok s] is [sweep_ok_fr (s_freed s)] by computation *)
Definition sweep_ok_fr (fr : list nid) (outs ins : list tid) : bool :=
  forallb (p_req P) outs && forallb (p_req P) ins
  && negb (existsb (fun n => mem n fr) (saved_exec outs ins)).

Lemma ag_sweep_spec : forall s outs ins rows b retain,
  ag_sweep P s outs ins rows b retain =
  if sweep_ok s outs ins
  then (Ok tt, mkStore (s_grads s)
                 (if retain then s_freed s else s_freed s ++ saved_exec outs ins)
                 (mkSweep outs ins rows b retain :: s_log s) (s_next s))
  else (Err RuntimeError, s).
Proof. exact (ag_sweep_eq P). Qed.

Lemma sweep_ok_freed : forall s1 s2 outs ins,
  s_freed s1 = s_freed s2 -> sweep_ok s1 outs ins = sweep_ok s2 outs ins.
Proof. intros s1 s2 outs ins E. unfold sweep_ok. rewrite E. reflexivity. Qed.

Definition plan_sweeps (outs ins : list tid) (plan : list chunk) : list sweep :=
  map (fun c => mkSweep outs ins (c_len c) (c_batched c) (c_retain c)) plan.

Lemma plan_sweeps_length outs ins plan : length (plan_sweeps outs ins plan) = length plan.
Proof. unfold plan_sweeps. apply map_length. Qed.

Lemma plan_sweeps_rows outs ins plan :
  map sw_rows (plan_sweeps outs ins plan) = map c_len plan.
Proof. unfold plan_sweeps. rewrite map_map. reflexivity. Qed.

(* the log holds the sweeps newest first *)
Lemma in_rev_plan_sweeps outs ins plan w :
  In w (rev (plan_sweeps outs ins plan)) ->
  exists c, In c plan /\ w = mkSweep outs ins (c_len c) (c_batched c) (c_retain c).
Proof.
  intros Hw. apply in_rev in Hw. unfold plan_sweeps in Hw. apply in_map_iff in Hw.
  destruct Hw as (c & E & Hc). exists c. split; [exact Hc | symmetry; exact E].
Qed.

(* Over a plan whose chunks all retain the graph except possibly the last, the chunked run
   succeeds exactly when a single engine run would, and then frees what that run would free:
   the retaining chunks leave s_freed, hence sweep_ok, as they found it. *)
Lemma jac_chunks_front : forall outs ins d front last,
  Forall (fun c => c_retain c = true) front -> forall s,
  jac_chunks N P s outs ins d (front ++ [last]) =
  if sweep_ok s outs ins
  then (Ok (run_plan (jac_row N P outs ins d) (front ++ [last])),
        mkStore (s_grads s)
          (if c_retain last then s_freed s else s_freed s ++ saved_exec outs ins)
          (rev (plan_sweeps outs ins (front ++ [last])) ++ s_log s) (s_next s))
  else (Err RuntimeError, s).
Proof.
  intros outs ins d front last HF. induction HF as [|c front Hc HF IH]; intros s;
    cbn [app jac_chunks]; rewrite ag_sweep_spec; destruct (sweep_ok s outs ins) eqn:Hok;
    try reflexivity.
  rewrite Hc.
  set (s1 := mkStore (s_grads s) (s_freed s)
               (mkSweep outs ins (c_len c) (c_batched c) true :: s_log s) (s_next s)).
  rewrite IH, (sweep_ok_freed s1 s outs ins eq_refl), Hok.
  unfold plan_sweeps, run_plan. cbn [map rev concat s1 s_grads s_freed s_log s_next].
  rewrite Hc, <- app_assoc. reflexivity.
Qed.

Lemma jac_chunks_eq : forall m k retain s outs ins d,
  jac_chunks N P s outs ins d (chunk_plan m k retain) =
  if sweep_ok s outs ins
  then (Ok (run_plan (jac_row N P outs ins d) (chunk_plan m k retain)),
        mkStore (s_grads s)
          (if retain then s_freed s else s_freed s ++ saved_exec outs ins)
          (rev (plan_sweeps outs ins (chunk_plan m k retain)) ++ s_log s) (s_next s))
  else (Err RuntimeError, s).
Proof.
  intros m k retain s outs ins d.
  destruct (plan_retain_flags m k retain) as (front & last & -> & HF & <-).
  exact (jac_chunks_front outs ins d front last HF s).
Qed.

(* no chunk fails because an earlier chunk of the same plan freed the graph: one possible sweep
   makes the whole plan run *)
Lemma jac_chunks_engine : forall m k retain s outs ins d,
  sweep_ok s outs ins = true ->
  exists rows, jac_chunks N P s outs ins d (chunk_plan m k retain) =
    (Ok rows, mkStore (s_grads s)
                (if retain then s_freed s else s_freed s ++ saved_exec outs ins)
                (rev (plan_sweeps outs ins (chunk_plan m k retain)) ++ s_log s) (s_next s)).
Proof.
  intros m k retain s outs ins d Hok. rewrite jac_chunks_eq, Hok. eexists. reflexivity.
Qed.

Lemma jac_chunks_engine_fail : forall m k retain s outs ins d,
  sweep_ok s outs ins = false ->
  jac_chunks N P s outs ins d (chunk_plan m k retain) = (Err RuntimeError, s).
Proof. intros m k retain s outs ins d Hok. rewrite jac_chunks_eq, Hok. reflexivity. Qed.

Lemma grad_compute_eq : forall outs ins retain s d,
  outs <> [] -> ins <> [] ->
  grad_compute N P s outs ins retain d =
  if sweep_ok s outs ins
  then (mk_dict P (dk d)
          (map (fun i => (i, plain (p_shape P i)
                  (materialize N P i
                     (ag_value N P outs (map (fun o => flat (dget' d o)) outs) i)))) ins),
        mkStore (s_grads s)
          (if retain then s_freed s else s_freed s ++ saved_exec outs ins)
          (mkSweep outs ins 1 false retain :: s_log s) (s_next s))
  else (Err RuntimeError, s).
Proof.
  intros outs ins retain s d Ho Hi. unfold grad_compute.
  destruct ins; [destruct (Hi eq_refl)|]. destruct outs; [destruct (Ho eq_refl)|].
  rewrite ag_sweep_spec. destruct (sweep_ok s _ _); reflexivity.
Qed.

Lemma run_grad_engine : forall outs ins retain s d d' s',
  outs <> [] -> ins <> [] ->
  run N P A (TGrad outs ins retain) s d = (Ok d', s') ->
  sweep_ok s outs ins = true /\
  s_freed s' = (if retain then s_freed s else s_freed s ++ saved_exec outs ins) /\
  s_log s' = mkSweep outs ins 1 false retain :: s_log s.
Proof.
  intros outs ins retain s d d' s' Ho Hi H.
  apply run_ok_body in H. destruct H as [_ H]. cbn [run_body] in H.
  rewrite (grad_compute_eq _ _ _ _ _ Ho Hi) in H. destruct (sweep_ok s outs ins); [|discriminate H].
  injection H as _ <-. repeat split.
Qed.

Lemma run_jac_engine : forall outs ins k retain s d d' s',
  outs <> [] -> ins <> [] ->
  run N P A (TJac outs ins k retain) s d = (Ok d', s') ->
  sweep_ok s outs ins = true /\
  s_freed s' = (if retain then s_freed s else s_freed s ++ saved_exec outs ins) /\
  s_log s' = rev (plan_sweeps outs ins (chunk_plan (nrows (dget' d (hd O outs))) k retain))
             ++ s_log s.
Proof.
  intros outs ins k retain s d d' s' Ho Hi H.
  destruct (run_jac_inv N P A _ _ _ _ _ _ _ _ Ho Hi H) as (matrix & Hj & _).
  rewrite jac_chunks_eq in Hj. destruct (sweep_ok s outs ins); [|discriminate Hj].
  injection Hj as _ <-. repeat split.
Qed.

Fixpoint all_retain (t : tr) : bool :=
  match t with
  | TGrad _ _ r => r
  | TJac _ _ _ r => r
  | TStack ts | TConj ts => forallb all_retain ts
  | TComp o i => all_retain o && all_retain i
  | _ => true
  end.

Lemma retain_keeps_graph : forall t s d r s',
  all_retain t = true -> run N P A t s d = (r, s') -> s_freed s' = s_freed s.
Proof.
  intros t s d r s'.
  apply (run_R N P A (fun s1 s2 => s_freed s2 = s_freed s1) (fun t => all_retain t = true)); clear.
  - reflexivity.
  - intros s1 s2 s3 E1 E2. rewrite E2. exact E1.
  - intros ts H. apply forallb_Forall_true. exact H.
  - intros ts H. apply forallb_Forall_true. exact H.
  - intros o i H. apply andb_true_iff. exact H.
  - intros ks s d _ _. apply (accumulate_fold_engine N).
  - intros outs ins retain s r s' Hr H. cbn [all_retain] in Hr. subst retain.
    exact (ag_sweep_retain_freed P _ _ _ _ _ _ _ H).
  - intros outs ins k retain rows b rt s r s' Hr Hrt H. cbn [all_retain] in Hr. subst retain.
    destruct Hrt as [-> | ->]; exact (ag_sweep_retain_freed P _ _ _ _ _ _ _ H).
Qed.

Fixpoint no_engine (t : tr) : bool :=
  match t with
  | TGrad _ _ _ => false
  | TJac _ _ _ _ => false
  | TStack ts | TConj ts => forallb no_engine ts
  | TComp o i => no_engine o && no_engine i
  | _ => true
  end.

Lemma no_engine_frame : forall t s d r s',
  no_engine t = true -> run N P A t s d = (r, s') ->
  s_freed s' = s_freed s /\ s_log s' = s_log s.
Proof.
  intros t s d r s'.
  apply (run_R N P A (fun s1 s2 => s_freed s2 = s_freed s1 /\ s_log s2 = s_log s1)
               (fun t => no_engine t = true)); clear.
  - intros s. split; reflexivity.
  - intros s1 s2 s3 [F1 L1] [F2 L2]. rewrite F2, L2. split; assumption.
  - intros ts H. apply forallb_Forall_true. exact H.
  - intros ts H. apply forallb_Forall_true. exact H.
  - intros o i H. apply andb_true_iff. exact H.
  - intros ks s d _ _. apply (accumulate_fold_engine N).
  - intros outs ins retain s r s' Hr. discriminate Hr.
  - intros outs ins k retain rows b rt s r s' Hr. discriminate Hr.
Qed.

(* backward and mtl_backward end alike: Jac, then Aggregate and Accumulate, which leave the
   engine alone *)
Lemma jac_tail : forall outs ord k retain F s d' s',
  run N P A (TComp (TAccumulate ord) (TComp (TAggregate ord) (TComp (TJac outs ord k retain) F)))
      s empty_dict = (Ok d', s') ->
  exists d1 s1 d2 s2,
    run N P A F s empty_dict = (Ok d1, s1) /\
    run N P A (TJac outs ord k retain) s1 d1 = (Ok d2, s2) /\
    s_freed s' = s_freed s2 /\ s_log s' = s_log s2.
Proof.
  intros outs ord k retain F s d' s' H.
  apply pipeline_inv in H. destruct H as (d1 & s1 & d2 & s2 & d5 & s5 & Hpre & Hjac & Hagg & Hacc).
  destruct (no_engine_frame (TAccumulate ord) _ _ _ _ eq_refl Hacc) as [F5 L5].
  destruct (no_engine_frame (TAggregate ord) _ _ _ _ eq_refl Hagg) as [F4 L4].
  exists d1, s1, d2, s2. rewrite F5, L5, F4, L4. repeat split; assumption.
Qed.

Lemma init_diag_rows : forall tensors s d d1 s1,
  NoDup tensors ->
  run N P A (TComp (TDiag tensors) (TInit tensors)) s d = (Ok d1, s1) ->
  s1 = s /\ nrows (dget' d1 (hd O tensors)) = list_sum (map (pnumel P) tensors).
Proof.
  intros tensors s d d1 s1 Hnd H.
  destruct (run_init_diag_inv N P A _ _ _ _ _ Hnd H) as (-> & Hne & ->). split; [reflexivity|].
  rewrite (dget'_indexed _ _ _ 0 _ Hnd (nth_error_hd tensors Hne)).
  unfold nrows. cbn [t_rows]. rewrite !map_length. apply seq_length.
Qed.

Lemma backward_run_engine : forall tensors ord k retain s d' s',
  ord <> [] ->
  backward_model N P A tensors ord k retain s = (Ok d', s') ->
  sweep_ok s tensors ord = true /\
  s_freed s' = (if retain then s_freed s else s_freed s ++ saved_exec tensors ord) /\
  s_log s' = rev (plan_sweeps tensors ord (chunk_plan (list_sum (map (pnumel P) tensors)) k retain))
             ++ s_log s.
Proof.
  intros tensors ord k retain s d' s' Hord H. apply backward_ok_inv in H. destruct H as [Eok H].
  destruct (proj1 (backward_args_ok_spec _ _ _ _) Eok) as (_ & Hne & Hnd & _).
  apply jac_tail in H. destruct H as (d2 & s2 & d3 & s3 & Hpre & Hjac & -> & ->).
  destruct (init_diag_rows _ _ _ _ _ Hnd Hpre) as [-> <-].
  exact (run_jac_engine _ _ _ _ _ _ _ _ Hne Hord Hjac).
Qed.

Lemma backward_retain_true : forall tensors ord k s r s',
  backward_model N P A tensors ord k true s = (r, s') -> s_freed s' = s_freed s.
Proof.
  intros tensors ord k s r s'.
  apply (backward_entry N P A (fun s1 s2 => s_freed s2 = s_freed s1)); [reflexivity|].
  apply retain_keeps_graph. reflexivity.
Qed.

Lemma backward_freed : forall tensors ord k retain s d' s',
  ord <> [] ->
  backward_model N P A tensors ord k retain s = (Ok d', s') ->
  s_freed s' = if retain then s_freed s else s_freed s ++ saved_exec tensors ord.
Proof.
  intros tensors ord k retain s d' s' Hord H.
  exact (proj1 (proj2 (backward_run_engine _ _ _ _ _ _ _ Hord H))).
Qed.

Lemma backward_log : forall tensors ord k retain s d' s',
  ord <> [] ->
  backward_model N P A tensors ord k retain s = (Ok d', s') ->
  exists m, s_log s' = rev (plan_sweeps tensors ord (chunk_plan m k retain)) ++ s_log s.
Proof.
  intros tensors ord k retain s d' s' Hord H.
  eexists. exact (proj2 (proj2 (backward_run_engine _ _ _ _ _ _ _ Hord H))).
Qed.

(* the freed set after one head, and the engine condition of the heads in sequence: each head's
   run must be possible once the earlier heads have freed their part *)
Definition fstep (features : list tid) (retain : bool) (fr : list nid) (pl : list tid * tid)
  : list nid :=
  if retain then fr else fr ++ saved_exec [snd pl] (fst pl ++ features).

Fixpoint heads_ok (features : list tid) (retain : bool) (fr : list nid)
         (tl : list (list tid * tid)) : Prop :=
  match tl with
  | [] => True
  | pl :: tl' => sweep_ok_fr fr [snd pl] (fst pl ++ features) = true /\
                 heads_ok features retain (fstep features retain fr pl) tl'
  end.

(* the engine condition of a call: the heads in sequence, then the trunk after all of them *)
Definition engine_ok (features : list tid) (retain : bool) (fr : list nid)
           (tl : list (list tid * tid)) (shared : list tid) : Prop :=
  heads_ok features retain fr tl /\
  sweep_ok_fr (fold_left (fstep features retain) tl fr) features shared = true.

Lemma heads_ok_nth : forall features retain (tl : list (list tid * tid)) fr,
  heads_ok features retain fr tl <->
  forall n, n < length tl ->
    sweep_ok_fr (fold_left (fstep features retain) (firstn n tl) fr)
      [snd (nth n tl ([], O))] (fst (nth n tl ([], O)) ++ features) = true.
Proof.
  intros features retain tl. induction tl as [|pl tl IH]; intros fr; cbn [heads_ok length].
  - split; [intros _ n Hn; destruct (Nat.nlt_0_r _ Hn) | intros _; exact I].
  - rewrite IH. split.
    + intros [H0 Hs] [|n] Hn; [exact H0 | exact (Hs n (proj2 (Nat.succ_lt_mono _ _) Hn))].
    + intros H. split; [exact (H O (Nat.lt_0_succ _))|].
      intros n Hn. exact (H (S n) (proj1 (Nat.succ_lt_mono _ _) Hn)).
Qed.

Lemma fold_fstep : forall features retain tl fr,
  fold_left (fstep features retain) tl fr =
  if retain then fr
  else fr ++ concat (map (fun pl => saved_exec [snd pl] (fst pl ++ features)) tl).
Proof.
  intros features retain tl. induction tl as [|pl tl IH]; intros fr; cbn [fold_left map concat].
  - destruct retain; [reflexivity | symmetry; apply app_nil_r].
  - rewrite IH. unfold fstep. destruct retain; [reflexivity | apply eq_sym, app_assoc].
Qed.

Lemma task_run_engine : forall features params loss retain s d d' s',
  features <> [] ->
  run N P A (task_transform features params loss retain) s d = (Ok d', s') ->
  sweep_ok s [loss] (params ++ features) = true /\
  s_freed s' = (if retain then s_freed s else s_freed s ++ saved_exec [loss] (params ++ features)) /\
  s_log s' = mkSweep [loss] (params ++ features) 1 false retain :: s_log s.
Proof.
  intros features params loss retain s d d' s' Hf H.
  unfold task_transform in H. cbv zeta in H.
  apply run_comp_inv in H. destruct H as (d2 & s2 & H & Hconj).
  apply run_comp_inv in H. destruct H as (d1 & s1 & Hinit & Hgrad).
  apply run_init_inv in Hinit. destruct Hinit as [-> _].
  apply no_engine_frame in Hconj; [|reflexivity]. destruct Hconj as [-> ->].
  apply run_grad_engine in Hgrad; [exact Hgrad | discriminate |].
  intros E. apply app_eq_nil in E. exact (Hf (proj2 E)).
Qed.

Lemma task_run_freed : forall features params loss retain s d d' s',
  features <> [] ->
  run N P A (task_transform features params loss retain) s d = (Ok d', s') ->
  s_freed s' = if retain then s_freed s else s_freed s ++ saved_exec [loss] (params ++ features).
Proof.
  intros features params loss retain s d d' s' Hf H.
  exact (proj1 (proj2 (task_run_engine _ _ _ _ _ _ _ _ Hf H))).
Qed.

Lemma tasks_run_engine : forall features retain d (pls : list (list tid * tid)),
  features <> [] -> forall s ds s',
  run_list N P A d (map (fun pl => task_transform features (fst pl) (snd pl) retain) pls) s
    = (Ok ds, s') ->
  heads_ok features retain (s_freed s) pls /\
  s_freed s' = fold_left (fstep features retain) pls (s_freed s) /\
  s_log s' = rev (map (fun pl => mkSweep [snd pl] (fst pl ++ features) 1 false retain) pls)
             ++ s_log s.
Proof.
  intros features retain d pls Hf. induction pls as [|pl pls IH]; intros s ds s' H.
  - rewrite run_list_nil in H. injection H as _ <-. repeat split.
  - cbn [map] in H. apply run_list_ok_cons in H. destruct H as (d1 & s1 & ds1 & H1 & H2 & _).
    destruct (task_run_engine _ _ _ _ _ _ _ _ Hf H1) as (Hok & F1 & L1).
    change (s_freed s1 = fstep features retain (s_freed s) pl) in F1.
    destruct (IH _ _ _ H2) as (Hh & F2 & L2).
    cbn [heads_ok fold_left map rev]. rewrite <- F1, <- app_assoc, L2, L1.
    split; [split; [exact Hok | exact Hh]|]. split; [exact F2 | reflexivity].
Qed.

Lemma stack_rows : forall ds d f0,
  stack_dicts N P ds = Ok d -> In f0 (dkeys d) -> nrows (dget' d f0) = length ds.
Proof.
  intros ds d f0 H Hin. unfold stack_dicts in H. apply mk_dict_ok in H. subst d.
  rewrite dkeys_items in Hin.
  rewrite dget'_items by exact Hin. unfold nrows. cbn [t_rows]. apply map_length.
Qed.

Lemma mtl_run_engine : forall losses features tasks shared k retain s d' s',
  shared <> [] ->
  mtl_backward_model N P A losses features tasks shared k retain s = (Ok d', s') ->
  engine_ok features retain (s_freed s) (combine tasks losses) shared /\
  s_freed s' = (if retain then s_freed s else
                s_freed s
                ++ concat (map (fun pl => saved_exec [snd pl] (fst pl ++ features))
                               (combine tasks losses))
                ++ saved_exec features shared) /\
  s_log s' = rev (plan_sweeps features shared (chunk_plan (length losses) k retain))
             ++ rev (map (fun pl => mkSweep [snd pl] (fst pl ++ features) 1 false retain)
                         (combine tasks losses))
             ++ s_log s.
Proof.
  intros losses features tasks shared k retain s d' s' Hsh H. apply mtl_ok_inv in H. destruct H as [Eok H].
  destruct (mtl_args_ok_spec P _ _ _ _ _ _ Eok) as (_ & Hf & _ & _ & _ & Hlen & _).
  apply jac_tail in H. destruct H as (d2 & s2 & d3 & s3 & Hstack & Hjac & -> & ->).
  (* the first feature is a key of the stacked dictionary: Jac's key check passed *)
  assert (Hkey : In (hd O features) (dkeys d2)).
  { apply (proj1 (set_eqb_spec _ _) (run_keys_ok N P A _ _ _ _ _ Hjac)), (proj2 (dedup_In _ _)).
    exact (nth_error_In _ _ (nth_error_hd features Hf)). }
  destruct (run_jac_engine _ _ _ _ _ _ _ _ Hf Hsh Hjac) as (Hok & F3 & L3).
  apply run_stack_inv in Hstack. destruct Hstack as (ds & EL & Hsd).
  rewrite (stack_rows _ _ _ Hsd Hkey), (run_list_length N P A _ _ _ _ _ EL) in L3.
  rewrite map_length, combine_length, <- Hlen, Nat.min_id in L3.
  destruct (tasks_run_engine _ _ _ _ Hf _ _ _ EL) as (Hh & F2 & L2).
  change (sweep_ok_fr (s_freed s2) features shared = true) in Hok.
  rewrite F2 in Hok, F3. rewrite F3, L3, L2.
  split; [split; [exact Hh | exact Hok]|]. split; [|reflexivity].
  rewrite fold_fstep. destruct retain; [reflexivity | apply eq_sym, app_assoc].
Qed.

Lemma mtl_retain_true : forall losses features tasks shared k s r s',
  mtl_backward_model N P A losses features tasks shared k true s = (r, s') -> s_freed s' = s_freed s.
Proof.
  intros losses features tasks shared k s r s'.
  apply (mtl_entry N P A (fun s1 s2 => s_freed s2 = s_freed s1)); [reflexivity|].
  apply retain_keeps_graph.
  unfold mtl_transform. cbn [all_retain]. apply forallb_forall.
  intros t Ht. apply in_map_iff in Ht. destruct Ht as (pl & <- & _). reflexivity.
Qed.

Lemma mtl_freed : forall losses features tasks shared k retain s d' s',
  shared <> [] ->
  mtl_backward_model N P A losses features tasks shared k retain s = (Ok d', s') ->
  s_freed s' = if retain then s_freed s else
    s_freed s
    ++ concat (map (fun pl => saved_exec [snd pl] (fst pl ++ features)) (combine tasks losses))
    ++ saved_exec features shared.
Proof.
  intros losses features tasks shared k retain s d' s' Hsh H.
  exact (proj1 (proj2 (mtl_run_engine _ _ _ _ _ _ _ _ _ Hsh H))).
Qed.

End C13.

Print Assumptions jac_chunks_engine.
Print Assumptions retain_keeps_graph.
Print Assumptions backward_freed.
Print Assumptions backward_log.
Print Assumptions mtl_freed.
