(* Existence of optima on the probability simplex.
   (A) a function on the simplex that is Lipschitz for the l1 distance attains its minimum
       (induction on the dimension: every point of the simplex of size m+1 is t :: (1-t) w',
       so the simplex is fibred over t in [0,1] and [fibre_min] applies);
   (B) the conic program of CAGrad  min_w <w, Gn mean> + c |g_0|_n sqrt (w^T Gn w)  over the
       simplex has an optimum;
   (C) hence for c >= 1 an optimum exists and every optimum that passes the norm_eps test
       gives an aggregation that conflicts with no objective. *)
From Coq Require Import Reals List Lia Lra.
From TJ Require Import Num Linalg NumR Agg.
From TJ.proofs Require Import LinalgR QPProofs C18Proofs MgdaProofs PublishedProofs QPMinExists.
Import ListNotations.
Local Open Scope R_scope.

Lemma l1_vscale c v : l1 (vscaleR c v) = Rabs c * l1 v.
Proof.
  induction v as [|x v IH]; [symmetry; apply Rmult_0_r|].
  cbn [vscale map]. fold (vscaleR c v). rewrite !l1_cons, IH. rn.
  rewrite Rabs_mult, Rmult_plus_distr_l. reflexivity.
Qed.

Lemma l1_nonneg_vsum v : nonneg v -> l1 v = vsumR v.
Proof.
  induction 1 as [|x v Hx Hv IH]; [reflexivity|].
  rewrite l1_cons, vsum_cons, IH, Rabs_pos_eq by exact Hx. reflexivity.
Qed.

Lemma l1_simplex m w : simplex m w -> l1 w = 1.
Proof. intros (_ & Hn & Hs). rewrite l1_nonneg_vsum by exact Hn. exact Hs. Qed.

Lemma simplex_inbox m w : simplex m w -> inbox (repeat 0 m) (repeat 1 m) w.
Proof.
  intros (Hl & Hn & Hs). subst m.
  assert (G : forall S, vsumR w <= S ->
            Forall2 Rle (repeat 0 (length w)) w /\ Forall2 Rle w (repeat S (length w))).
  { clear Hs. induction Hn as [|x v Hx Hv IH]; intros S HS; [split; constructor|].
    rewrite vsum_cons in HS. pose proof (vsum_nonneg v Hv).
    destruct (IH S ltac:(lra)) as [I1 I2]. cbn [length repeat].
    split; [constructor; [exact Hx | exact I1] | constructor; [lra | exact I2]]. }
  apply G. lra.
Qed.

Theorem simplex_min_exists : forall m (f : list R -> R) (L : R), (1 <= m)%nat -> 0 <= L ->
  (forall w w', simplex m w -> simplex m w' -> f w - f w' <= L * l1 (vsubR w w')) ->
  exists w, simplex m w /\ forall w', simplex m w' -> f w <= f w'.
Proof.
  intros m f L Hm. destruct m as [|m]; [lia|]. clear Hm. revert f L.
  induction m as [|m IH]; intros f L HL Hlip.
  - exists [1]. split.
    + split; [reflexivity|]. split; [repeat constructor; lra | cbn; lra].
    + intros w (Hl & _ & Hs). destruct w as [|x [|y w]]; try discriminate.
      cbn in Hs. assert (x = 1) by lra. subst x. lra.
  - destruct (fibre_min (simplex (S m)) (fun t w' => f (t :: vscaleR (1 - t) w')) 0 1 (2 * L))
      as (ts & ws & Hts & Hws & Hmin); [lra | lra | | |].
    + intros t Ht. apply (IH _ L HL). intros w w' Hw Hw'.
      pose proof (Hlip _ _ (simplex_cons _ _ _ Ht Hw) (simplex_cons _ _ _ Ht Hw')) as H.
      rewrite l1_vsub_cons, <- vscale_vsub, l1_vscale, (Rminus_diag_eq t t eq_refl), Rabs_R0 in H.
      rewrite Rabs_pos_eq, Rplus_0_l in H by lra. apply Rle_trans with (1 := H).
      apply Rmult_le_compat_l; [exact HL|]. apply Rle_trans with (1 * l1 (vsubR w w')).
      * apply Rmult_le_compat_r; [apply l1_nonneg | lra].
      * rewrite Rmult_1_l. apply Rle_refl.
    + intros t s w Ht Hs Hw.
      pose proof (Hlip _ _ (simplex_cons _ _ _ Ht Hw) (simplex_cons _ _ _ Hs Hw)) as H.
      rewrite l1_vsub_cons, <- vscale_minus, l1_vscale, (l1_simplex _ _ Hw) in H.
      replace (1 - t - (1 - s)) with (- (t - s)) in H by ring. rewrite Rabs_Ropp in H. lra.
    + exists (ts :: vscaleR (1 - ts) ws). split; [apply simplex_cons; assumption|].
      intros [|t r] Hw; [destruct Hw as (Hl & _); discriminate|].
      destruct (simplex_cons_inv (S m) t r (le_n_S _ _ (Nat.le_0_l m)) Hw) as (Ht & w' & Hw' & ->).
      apply Hmin; assumption.
Qed.

Lemma knorm_triangle k y e : 0 <= k -> length y = length e ->
  sqrt (k * dotR (vaddR y e) (vaddR y e)) <= sqrt (k * dotR y y) + sqrt (k * dotR e e).
Proof.
  intros Hk Hl. rewrite !sqrt_mult_alt, <- Rmult_plus_distr_l by exact Hk.
  apply Rmult_le_compat_l; [apply sqrt_pos | apply norm_triangle, Hl].
Qed.

(* |d . J|^2 = qf (gram J) d  is at most  Ksum (gram J) * (l1 d)^2 *)
Lemma knorm_l1 n J k d : wfmat n J -> 0 <= k -> length d = length J ->
  sqrt (k * dotR (vmR n d J) (vmR n d J)) <= sqrt (k * Ksum (gramR J)) * l1 d.
Proof.
  intros HJ Hk Hd. rewrite <- (sqrt_square (l1 d)) by apply l1_nonneg.
  rewrite <- sqrt_mult_alt by (apply Rmult_le_pos; [exact Hk | apply Ksum_nonneg]).
  apply sqrt_le_1_alt. rewrite Rmult_assoc. apply Rmult_le_compat_l; [exact Hk|].
  rewrite <- (qf_gram n J d HJ Hd). apply bil_le_l1; apply Rle_refl.
Qed.

Lemma conic_objective_lip n J b k K : wfmat n J -> 0 <= k -> 0 <= K ->
  exists L, 0 <= L /\ forall w w', length w = length J -> length w' = length J ->
    (dotR w b + K * sqrt (k * dotR (vmR n w J) (vmR n w J))) -
    (dotR w' b + K * sqrt (k * dotR (vmR n w' J) (vmR n w' J))) <= L * l1 (vsubR w w').
Proof.
  intros HJ Hk HK. set (C := sqrt (k * Ksum (gramR J))).
  assert (HKC : 0 <= K * C) by (apply Rmult_le_pos; [exact HK | apply sqrt_pos]).
  exists (l1 b + K * C). split; [pose proof (l1_nonneg b); lra|].
  intros w w' Hw Hw'.
  assert (Hd : length (vsubR w w') = length J) by (rewrite length_vsub; congruence).
  pose proof (Rle_trans _ _ _ (Rle_abs _) (abs_dot_l1 (vsubR w w') b)) as A.
  rewrite dot_vsub_l in A by congruence.
  pose proof (knorm_triangle k (vmR n w' J) (vmR n (vsubR w w') J) Hk) as T.
  rewrite <- vm_vadd, vadd_vsub in T by congruence.
  specialize (T ltac:(rewrite !length_vm by exact HJ; reflexivity)).
  pose proof (knorm_l1 n J k _ HJ Hk Hd) as Be. fold C in Be.
  set (d := l1 (vsubR w w')) in *.
  pose proof (Rmult_le_compat_l K _ _ HK (Rle_trans _ _ _ T (Rplus_le_compat_l _ _ _ Be))) as T2.
  clear -A T2. lra.
Qed.

Lemma conic_min_exists n J b k K : wfmat n J -> J <> [] -> 0 <= k -> 0 <= K ->
  has_min (simplex (length J)) (fun w => dotR w b + K * sqrt (k * dotR (vmR n w J) (vmR n w J))).
Proof.
  intros HJ HJne Hk HK. destruct (conic_objective_lip n J b k K HJ Hk HK) as (L & HL & Hlip).
  apply (simplex_min_exists _ _ L (length_nonnil J HJne) HL).
  intros w w' Hw Hw'. apply Hlip; [exact (proj1 Hw) | exact (proj1 Hw')].
Qed.

Theorem cagrad_opt_exists : forall n J s ne c, wfmat n J -> J <> [] -> 0 < s ->
  nltb RN s ne = false -> 0 <= c ->
  exists w_opt, cagrad_opt (normalized_gramian RN (gramR J) s ne) c w_opt.
Proof.
  intros n J s ne c HJ HJne Hs Hsne Hc.
  set (Gn := normalized_gramian RN (gramR J) s ne).
  assert (HlGn : length Gn = length J).
  { unfold Gn. apply length_normalized_gram. }
  assert (Hk : 0 <= 1 / (s * s)).
  { apply Rlt_le, Rdiv_lt_0_compat; [lra | apply Rmult_lt_0_compat; exact Hs]. }
  set (mean := mean_weights RN (length J)).
  set (g0n := sqrt (quadform RN Gn mean)).
  assert (HK : 0 <= c * g0n) by (apply Rmult_le_pos; [exact Hc | apply sqrt_pos]).
  destruct (conic_min_exists n J (mvR Gn mean) (1 / (s * s)) (c * g0n) HJ HJne Hk HK)
    as (w & Hw & Hmin).
  exists w. unfold cagrad_opt. cbv zeta. fold Gn. rewrite HlGn. fold mean. fold g0n.
  split; [exact Hw|]. intros w' Hw'. unfold Gn.
  rewrite !(quadform_normalized_big n J s ne) by first [assumption | exact (proj1 Hw) | exact (proj1 Hw')].
  apply (Hmin w' Hw').
Qed.

(* below the norm_eps threshold the normalised Gramian is the zero matrix, the objective is
   constantly 0 and every point of the simplex is optimal *)
Lemma cagrad_opt_small_all J s ne c w : nltb RN s ne = true -> simplex (length J) w ->
  cagrad_opt (normalized_gramian RN (gramR J) s ne) c w.
Proof.
  intros Hsne Hw. unfold cagrad_opt. cbv zeta. unfold normalized_gramian. rewrite Hsne.
  rewrite length_gram.
  assert (HlZ : length (mzero RN (length J)) = length J) by (unfold mzero; apply repeat_length).
  rewrite HlZ. split; [exact Hw|]. intros w' _.
  assert (Z : forall v, quadform RN (mzero RN (length J)) v = 0).
  { intros v. unfold quadform. rewrite mv_mzero. apply dot_vzero_r. }
  rewrite !Z, !mv_mzero, !dot_vzero_r. lra.
Qed.

Lemma cagrad_opt_exists_small : forall J s ne c, J <> [] -> nltb RN s ne = true ->
  exists w_opt, cagrad_opt (normalized_gramian RN (gramR J) s ne) c w_opt.
Proof.
  intros J s ne c HJne Hsne. exists (onehotR (length J) 0 1).
  apply cagrad_opt_small_all; [exact Hsne|]. apply simplex_onehot, length_nonnil, HJne.
Qed.

Corollary cagrad_c_ge_1_exists_nonconflicting : forall n J s ne c,
  wfmat n J -> J <> [] -> 0 < s -> nltb RN s ne = false -> 0 < ne -> 1 <= c ->
  let Gn := normalized_gramian RN (gramR J) s ne in
  (exists w_opt, cagrad_opt Gn c w_opt) /\
  (forall w_opt, cagrad_opt Gn c w_opt ->
     nleb RN ne (sqrt (quadform RN Gn w_opt)) = true ->
     forall i, (i < length J)%nat -> 0 <= nth i (mvR J (agg_cagrad RN s ne c w_opt J)) 0).
Proof.
  intros n J s ne c HJ HJne Hs Hsne Hne Hc Gn. split.
  - apply (cagrad_opt_exists n J s ne c); try assumption. lra.
  - intros w_opt Hopt Hbig i Hi.
    apply (cagrad_c_ge_1_nonconflicting_opt n J s ne c w_opt); assumption.
Qed.

(* the same without the norm_eps test: below the threshold the output is the zero vector *)
Corollary cagrad_c_ge_1_exists_nonconflicting_all : forall n J s ne c,
  wfmat n J -> J <> [] -> 0 < s -> nltb RN s ne = false -> 0 < ne -> 1 <= c ->
  let Gn := normalized_gramian RN (gramR J) s ne in
  exists w_opt, cagrad_opt Gn c w_opt /\
    forall w, cagrad_opt Gn c w ->
      forall i, (i < length J)%nat -> 0 <= nth i (mvR J (agg_cagrad RN s ne c w J)) 0.
Proof.
  intros n J s ne c HJ HJne Hs Hsne Hne Hc Gn.
  destruct (cagrad_opt_exists n J s ne c HJ HJne Hs Hsne ltac:(lra)) as (w_opt & Hopt).
  exists w_opt. split; [exact Hopt|]. intros w Hw i Hi.
  destruct (nleb RN ne (sqrt (quadform RN Gn w))) eqn:Hbig.
  - apply (cagrad_c_ge_1_nonconflicting_opt n J s ne c w); assumption.
  - rewrite (cagrad_below_threshold_nonconflicting n J s ne c w HJ HJne Hbig i). lra.
Qed.

Print Assumptions simplex_min_exists.
Print Assumptions cagrad_opt_exists.
Print Assumptions cagrad_opt_exists_small.
Print Assumptions cagrad_c_ge_1_exists_nonconflicting.
Print Assumptions cagrad_c_ge_1_exists_nonconflicting_all.
