From Coq Require Import Reals List Bool Arith Lia.
From TJ Require Import Num Linalg NumR Chunk Autojac.
From TJ.proofs Require Import LinalgR ChunkProofs AutojacBasics AutojacSpec EntrySpec C20Proofs.
Import ListNotations.
Local Open Scope R_scope.

(* What an accepted backward call deposits in the .grad fields.  The dictionaries that
   Diagonalize, Jac and Matrixify hand on are described as the column blocks of one matrix
   ([sdict]); each stage is inverted once in that form, and the tail Accumulate . Aggregate once
   for backward and mtl_backward. *)

Lemma map_over_keys {C} (F G : nat -> C) (l : list nat) : forall s,
  (forall j k, nth_error l j = Some k -> F k = G (s + j)%nat) ->
  map F l = map G (seq s (length l)).
Proof.
  induction l as [|x l IH]; intros s H; [reflexivity|].
  cbn [map length seq]. f_equal.
  - rewrite (H O x eq_refl). f_equal. lia.
  - apply IH. intros j k Hj. rewrite (H (S j) k Hj). f_equal. lia.
Qed.

Lemma firstn_vzero a b : firstn a (vzeroR (a + b)) = vzeroR a.
Proof. unfold vzero. rewrite firstn_repeat, Nat.min_l by apply Nat.le_add_r. reflexivity. Qed.
Lemma skipn_vzero a b : skipn a (vzeroR (a + b)) = vzeroR b.
Proof. unfold vzero. rewrite skipn_repeat, (Nat.add_comm a b), Nat.add_sub. reflexivity. Qed.

Lemma onehot_app_lt a b r x : (r < a)%nat -> onehotR (a + b) r x = onehotR a r x ++ vzeroR b.
Proof.
  revert r; induction a as [|a IH]; intros r H; [lia|].
  cbn [Nat.add]. destruct r as [|r]; cbn [onehot app].
  - unfold vzero. rewrite repeat_app. reflexivity.
  - rewrite IH by lia. reflexivity.
Qed.

Lemma onehot_app_ge a b r x : (a <= r)%nat -> onehotR (a + b) r x = vzeroR a ++ onehotR b (r - a) x.
Proof.
  revert r; induction a as [|a IH]; intros r H.
  - rewrite Nat.sub_0_r. reflexivity.
  - destruct r as [|r]; [lia|]. cbn [Nat.add onehot Nat.sub]. rewrite IH by lia. reflexivity.
Qed.

Lemma vm_zero_rows n : forall w M, Forall (fun row => row = vzeroR n) M -> vmR n w M = vzeroR n.
Proof.
  induction w as [|x w IH]; intros M HM; [reflexivity|].
  destruct M as [|row M]; [reflexivity|].
  apply Forall_cons_iff in HM. destruct HM as [-> HM]. cbn [vm].
  rewrite IH by exact HM. rewrite vscale_vzero. apply vadd_vzero_vzero.
Qed.

Section Spec.
Variable P : prog R.

Lemma total_cons o outs : total P (o :: outs) = (pnumel P o + total P outs)%nat.
Proof. reflexivity. Qed.

Lemma total_app a b : total P (a ++ b) = (total P a + total P b)%nat.
Proof.
  induction a as [|x a IH]; [reflexivity|]. cbn [app]. rewrite !total_cons, IH. lia.
Qed.

Lemma Drows_cons o outs i : Drows P (o :: outs) i = p_D P o i ++ Drows P outs i.
Proof. reflexivity. Qed.

Lemma length_Drows outs i : wf_prog P -> length (Drows P outs i) = total P outs.
Proof.
  intros [Hdim _]. induction outs as [|o outs IH]; [reflexivity|].
  rewrite Drows_cons, app_length, total_cons, IH. destruct (Hdim o i) as [-> _]. reflexivity.
Qed.

Lemma wfmat_Drows outs i : wf_prog P -> wfmat (pnumel P i) (Drows P outs i).
Proof.
  intros [Hdim _]. unfold wfmat. induction outs as [|o outs IH]; [constructor|].
  rewrite Drows_cons. apply Forall_app. split; [|exact IH]. destruct (Hdim o i) as [_ H]. exact H.
Qed.

Lemma unreachable_zero_block : forall outs i,
  wf_prog P -> (forall o, In o outs -> p_reach P o i = false) ->
  Forall (fun row => row = vzeroR (pnumel P i)) (Drows P outs i).
Proof.
  intros outs i [_ Hz] Hun. induction outs as [|o outs IH]; [constructor|].
  rewrite Drows_cons. apply Forall_app. split.
  - apply Hz. apply Hun. left. reflexivity.
  - apply IH. intros o' Ho'. apply Hun. right. exact Ho'.
Qed.

Lemma jacobian_rows_app : forall a b ord,
  wf_prog P -> jacobian P (a ++ b) ord = jacobian P a ord ++ jacobian P b ord.
Proof.
  intros a b ord Hwf. unfold jacobian. rewrite total_app, seq_app, map_app. cbn [Nat.add].
  f_equal.
  - apply map_ext_in. intros r Hr. apply in_seq in Hr. f_equal. apply map_ext. intros i.
    unfold Drows. rewrite flat_map_app. fold (Drows P a i) (Drows P b i).
    apply app_nth1. rewrite length_Drows by exact Hwf. lia.
  - rewrite <- (seq_shift_add (total P a) (total P b)), map_map.
    apply map_ext. intros r. f_equal. apply map_ext. intros i.
    unfold Drows. rewrite flat_map_app. fold (Drows P a i) (Drows P b i).
    rewrite <- (length_Drows a i Hwf). apply app_nth2_plus.
Qed.

Lemma wfmat_jacobian outs ord : wf_prog P -> wfmat (total P ord) (jacobian P outs ord).
Proof.
  intros Hwf. unfold wfmat, jacobian. apply Forall_forall. intros row Hrow.
  apply in_map_iff in Hrow. destruct Hrow as (r & <- & Hr). apply in_seq in Hr.
  unfold total. apply length_concat_map. intros i _.
  apply wfmat_nth; [apply wfmat_Drows; exact Hwf | rewrite length_Drows by exact Hwf; lia].
Qed.

Lemma vjp_nil cots i : vjp RN P [] cots i = vzeroR (pnumel P i).
Proof. reflexivity. Qed.

Lemma vjp_nil_r outs i : vjp RN P outs [] i = vzeroR (pnumel P i).
Proof. destruct outs; reflexivity. Qed.

Lemma vjp_cons o outs c cots i :
  vjp RN P (o :: outs) (c :: cots) i
  = vaddR (vmR (pnumel P i) c (p_D P o i)) (vjp RN P outs cots i).
Proof. reflexivity. Qed.

Lemma length_vjp outs cots i : wf_prog P -> length (vjp RN P outs cots i) = pnumel P i.
Proof.
  intros Hwf. revert cots. induction outs as [|o outs IH]; intros cots.
  - rewrite vjp_nil. apply length_vzero.
  - destruct cots as [|c cots]; [rewrite vjp_nil_r; apply length_vzero|].
    rewrite vjp_cons. destruct Hwf as [Hdim _]. destruct (Hdim o i) as [_ HM].
    rewrite length_vadd; rewrite length_vm by exact HM; [reflexivity|]. symmetry. apply IH.
Qed.

Lemma vjp_unreach i : forall outs cots,
  wf_prog P -> (forall o, In o outs -> p_reach P o i = false) ->
  vjp RN P outs cots i = vzeroR (pnumel P i).
Proof.
  induction outs as [|o outs IH]; intros cots Hwf Hun; [reflexivity|].
  destruct cots as [|c cots]; [reflexivity|]. rewrite vjp_cons.
  rewrite IH by (try exact Hwf; intros o' Ho'; apply Hun; right; exact Ho').
  destruct Hwf as [_ Hz]. rewrite vm_zero_rows by (apply Hz; apply Hun; left; reflexivity).
  apply vadd_vzero_vzero.
Qed.

(* _materialize turns the None of an unreached input into the zeros that the vjp is there *)
Lemma materialize_vjp outs cots i : wf_prog P ->
  materialize RN P i (ag_value RN P outs cots i) = vjp RN P outs cots i.
Proof.
  intros Hwf. unfold ag_value. destruct (existsb (fun o => p_reach P o i) outs) eqn:E; [reflexivity|].
  cbn [materialize]. symmetry. apply vjp_unreach; [exact Hwf|].
  intros o Ho. destruct (p_reach P o i) eqn:Er; [|reflexivity].
  rewrite (proj2 (existsb_exists (fun o => p_reach P o i) outs)) in E; [discriminate E|].
  exists o. split; assumption.
Qed.

Lemma vjp_vzero_map i : forall outs, wf_prog P ->
  vjp RN P outs (map (fun o => vzeroR (pnumel P o)) outs) i = vzeroR (pnumel P i).
Proof.
  induction outs as [|o outs IH]; intros Hwf; [reflexivity|].
  cbn [map]. rewrite vjp_cons, IH by exact Hwf.
  destruct Hwf as [Hdim _]. destruct (Hdim o i) as [_ HM].
  rewrite vm_vzero_any by exact HM. apply vadd_vzero_vzero.
Qed.

Lemma split_by_vzero : forall outs,
  split_by (map (pnumel P) outs) (vzeroR (total P outs)) = map (fun o => vzeroR (pnumel P o)) outs.
Proof.
  induction outs as [|o outs IH]; [reflexivity|].
  rewrite total_cons. cbn [map split_by]. rewrite firstn_vzero, skipn_vzero, IH. reflexivity.
Qed.

Lemma vjp_zero_cots i outs : wf_prog P ->
  vjp RN P outs (split_by (map (pnumel P) outs) (vzeroR (total P outs))) i = vzeroR (pnumel P i).
Proof. intros Hwf. rewrite split_by_vzero. apply vjp_vzero_map. exact Hwf. Qed.

Lemma vjp_onehot i : forall outs r, wf_prog P -> (r < total P outs)%nat ->
  vjp RN P outs (split_by (map (pnumel P) outs) (onehotR (total P outs) r 1)) i
  = nth r (Drows P outs i) [].
Proof.
  induction outs as [|o outs IH]; intros r Hwf Hr; [cbn in Hr; lia|].
  rewrite total_cons in *. cbn [map]. rewrite Drows_cons.
  pose proof Hwf as [Hdim _]. destruct (Hdim o i) as [HlenD HM].
  destruct (lt_dec r (pnumel P o)) as [Hlt|Hge].
  - rewrite (onehot_app_lt _ _ _ _ Hlt), split_by_app by apply length_onehot. rewrite vjp_cons.
    rewrite vjp_zero_cots by exact Hwf.
    pose proof (vm_onehot _ _ HM r) as Hvm. rewrite HlenD in Hvm. rewrite (Hvm Hlt).
    rewrite app_nth1 by lia. apply vadd_vzero_r. apply wfmat_nth; [exact HM | lia].
  - apply Nat.nlt_ge in Hge.
    rewrite (onehot_app_ge _ _ _ _ Hge), split_by_app by apply length_vzero. rewrite vjp_cons.
    rewrite vm_vzero_any by exact HM. rewrite IH by (try exact Hwf; lia).
    rewrite app_nth2 by lia. rewrite HlenD. apply vadd_vzero_l.
    apply wfmat_nth; [apply wfmat_Drows; exact Hwf | rewrite length_Drows by exact Hwf; lia].
Qed.

Lemma vjp_scalar_loss loss i : wf_prog P -> pnumel P loss = 1%nat ->
  vjp RN P [loss] [[1]] i = grad_of P loss i.
Proof.
  intros [Hdim _] H1. rewrite vjp_cons, vjp_nil. destruct (Hdim loss i) as [Hl HM].
  rewrite H1 in Hl. unfold grad_of.
  destruct (p_D P loss i) as [|row [|row2 M]]; cbn [length] in Hl; try lia.
  apply Forall_cons_iff in HM. destruct HM as [Hr _].
  cbn [vm nth]. rewrite vscale_one, !(vadd_vzero_r row _ Hr). reflexivity.
Qed.

Lemma wfmat_mtl_matrix features shared losses :
  wf_prog P -> wfmat (total P shared) (mtl_matrix P features shared losses).
Proof.
  intros Hwf. unfold wfmat, mtl_matrix. apply Forall_forall. intros row Hrow.
  apply in_map_iff in Hrow. destruct Hrow as (l & <- & _).
  unfold mtl_row, total. apply length_concat_map. intros p _. apply length_vjp. exact Hwf.
Qed.

Lemma slice_items {X} (G : tid -> list R -> X) ord : NoDup ord -> forall v,
  map (fun kp => (fst kp, G (fst kp) (snd kp))) (combine ord (split_by (map (pnumel P) ord) v))
  = map (fun i => (i, G i (slice_of P ord v i))) ord.
Proof.
  induction 1 as [|x ord Hx Hnd IH]; intros v; [reflexivity|].
  cbn [map split_by combine fst snd]. f_equal.
  - unfold slice_of. cbn [offset]. rewrite Nat.eqb_refl. reflexivity.
  - rewrite IH. apply map_ext_in. intros i Hi. unfold slice_of. cbn [offset].
    destruct (Nat.eqb_spec x i) as [->|_]; [contradiction|]. rewrite skipn_add. reflexivity.
Qed.

Lemma grad_val_grads_eq (s1 s : @store R) t :
  s_grads s1 = s_grads s -> grad_val s1 t = grad_val s t.
Proof. intros H. unfold grad_val. rewrite (sget_grads_eq s1 s t H). reflexivity. Qed.

End Spec.

(* key number j of [l] holds, row by row, the j-th piece of the rows of J split by [lens] *)
Definition sdict (kd : dkind) (b : bool) (sh : nat * nat -> list nat) (lens : list nat)
           (J : list (list R)) (l : list tid) : @tdict R :=
  mkDict kd (map (fun ji => (snd ji, mkTens b (sh ji)
                                (map (fun ps => nth (fst ji) ps []) (map (split_by lens) J))))
                 (combine (seq 0 (length l)) l)).

Definition jac_dict (P : prog R) (ord : list tid) (J : list (list R)) : @tdict R :=
  sdict KJacobians true (fun jk => p_shape P (snd jk)) (map (pnumel P) ord) J ord.

Lemma dkeys_sdict kd b sh lens J l : dkeys (sdict kd b sh lens J l) = l.
Proof. apply keys_indexed. Qed.

Lemma dget_sdict kd b sh lens J l j k : NoDup l -> nth_error l j = Some k ->
  dget (sdict kd b sh lens J l) k
  = Some (mkTens b (sh (j, k)) (map (fun ps => nth j ps []) (map (split_by lens) J))).
Proof.
  exact (dget_indexed
    (fun ji : nat * nat => mkTens b (sh ji) (map (fun ps : list (list R) => nth (fst ji) ps [])
                                               (map (split_by lens) J))) kd l j k).
Qed.

Lemma dget'_sdict kd b sh lens J l j k : NoDup l -> nth_error l j = Some k ->
  dget' (sdict kd b sh lens J l) k
  = mkTens b (sh (j, k)) (map (fun ps => nth j ps []) (map (split_by lens) J)).
Proof. intros Hnd Hj. unfold dget'. rewrite (dget_sdict kd b sh lens J l j k Hnd Hj). reflexivity. Qed.

Lemma dget_sdict_blocks {X} kd b sh (f : tid -> nat) (g : X -> tid -> list R) (xs : list X) l j k :
  NoDup l -> nth_error l j = Some k -> (forall x i, length (g x i) = f i) ->
  dget (sdict kd b sh (map f l) (map (fun x => concat (map (g x) l)) xs) l) k
  = Some (mkTens b (sh (j, k)) (map (fun x => g x k) xs)).
Proof.
  intros Hnd Hj Hlen. rewrite (dget_sdict _ _ _ _ _ l j k Hnd Hj). rewrite !map_map.
  do 2 f_equal. apply map_ext. intros x.
  rewrite split_by_concat by (rewrite map_map; apply map_ext; intros i; apply Hlen).
  apply nth_error_nth. rewrite nth_error_map, Hj. reflexivity.
Qed.

Lemma sdict_row kd b sh lens J l r : NoDup l -> length lens = length l -> (r < length J)%nat ->
  map (fun k => nth r (t_rows (dget' (sdict kd b sh lens J l) k)) []) l
  = split_by lens (nth r J []).
Proof.
  intros Hnd Hlen Hr.
  rewrite (map_over_keys _ (fun j => nth j (split_by lens (nth r J [])) []) l O).
  - apply map_nth_seq_len. rewrite split_by_length. symmetry. exact Hlen.
  - intros j k Hj. rewrite (dget'_sdict kd b sh lens J l j k Hnd Hj). cbn [t_rows Nat.add].
    rewrite map_map. rewrite (nth_map_lt _ J r [] []) by exact Hr. reflexivity.
Qed.

Lemma nrows_sdict_hd kd b sh lens J l : NoDup l -> l <> [] ->
  nrows (dget' (sdict kd b sh lens J l) (hd O l)) = length J.
Proof.
  intros Hnd Hne. rewrite (dget'_sdict kd b sh lens J l O (hd O l) Hnd (nth_error_hd l Hne)).
  unfold nrows. cbn [t_rows]. rewrite !map_length. reflexivity.
Qed.

Lemma unite_sdict kd b sh lens J ord :
  NoDup ord -> ord <> [] -> length lens = length ord ->
  wfmat (fold_right Nat.add O lens) J ->
  unite ord (sdict kd b sh lens J ord) = J.
Proof.
  intros Hnd Hne Hlen HJ. rewrite unite_eq, nrows_sdict_hd by assumption.
  transitivity (map (fun r => nth r J []) (seq 0 (length J))); [|apply map_nth_seq].
  apply map_ext_in. intros r Hr. apply in_seq in Hr.
  rewrite sdict_row by (try assumption; lia).
  apply concat_split_by. apply wfmat_nth; [exact HJ | lia].
Qed.

Lemma trail_sdict kd b sh lens J l k : NoDup l -> In k l ->
  exists j, nth_error l j = Some k /\ t_trail (dget' (sdict kd b sh lens J l) k) = sh (j, k).
Proof.
  intros Hnd Hin. apply In_nth_error in Hin. destruct Hin as [j Hj]. exists j.
  split; [exact Hj|]. rewrite (dget'_sdict kd b sh lens J l j k Hnd Hj). reflexivity.
Qed.

Lemma sdict_trail_heads kd b (f : tid -> nat) lens J ord : NoDup ord ->
  map (fun k => hd O (t_trail (dget' (sdict kd b (fun jk => [f (snd jk)]) lens J ord) k))) ord
  = map f ord.
Proof.
  intros Hnd. apply map_ext_in. intros k Hk.
  destruct (trail_sdict kd b (fun jk => [f (snd jk)]) lens J ord k Hnd Hk) as (j & _ & ->).
  reflexivity.
Qed.

Definition eye (m : nat) : list (list R) := map (fun r => onehotR m r 1) (seq 0 m).

Lemma length_eye m : length (eye m) = m.
Proof. unfold eye. rewrite map_length, seq_length. reflexivity. Qed.

Lemma nth_eye m r : (r < m)%nat -> nth r (eye m) [] = onehotR m r 1.
Proof. intros H. unfold eye. apply (nth_map_seq (fun r0 => onehotR m r0 1) [] m r H). Qed.

Lemma diag_ones m : map (diag_row RN (vones RN m)) (seq 0 m) = eye m.
Proof.
  unfold eye, diag_row, vones. rewrite repeat_length. apply map_ext_in. intros r Hr.
  apply in_seq in Hr. rewrite nth_repeat_lt by lia. reflexivity.
Qed.

Section C01.
Variable P : prog R.
Variable A : list (list R) -> res (list R).

Lemma init_diag_run tensors s d1 s1 :
  NoDup tensors ->
  run RN P A (TComp (TDiag tensors) (TInit tensors)) s empty_dict = (Ok d1, s1) ->
  s1 = s /\
  d1 = jac_dict P tensors (eye (total P tensors)).
Proof.
  intros Hnd H. destruct (run_init_diag_inv RN P A _ _ _ _ _ Hnd H) as (-> & _ & ->).
  split; [reflexivity|].
  (* the diagonal matrix of ones is the identity *)
  rewrite <- (map_map (diag_row RN (vones RN (list_sum (map (pnumel P) tensors))))
                       (split_by (map (pnumel P) tensors))), diag_ones.
  reflexivity.
Qed.

Lemma jac_row_vjp outs ins d r : wf_prog P ->
  jac_row RN P outs ins d r
  = concat (map (fun i => vjp RN P outs (map (fun o => nth r (t_rows (dget' d o)) []) outs) i) ins).
Proof.
  intros Hwf. unfold jac_row. f_equal. apply map_ext. intros i. apply materialize_vjp. exact Hwf.
Qed.

Lemma jac_stage outs ord k retain s d d2 s2 m :
  outs <> [] -> ord <> [] -> valid_chunk k = true ->
  nrows (dget' d (hd O outs)) = m ->
  run RN P A (TJac outs ord k retain) s d = (Ok d2, s2) ->
  d2 = sdict (dk d) true (fun jk => p_shape P (snd jk)) (map (pnumel P) ord)
             (map (jac_row RN P outs ord d) (seq 0 m)) ord.
Proof.
  intros Ho Hi Hk Hn H.
  apply run_jac_inv in H; [|exact Ho|exact Hi]. destruct H as (matrix & Hj & ->).
  rewrite Hn in Hj. apply jac_chunks_rows in Hj. rewrite run_plan_rows_any in Hj by exact Hk.
  rewrite Hj. reflexivity.
Qed.

Lemma jac_run tensors ord k retain s d2 s2 :
  wf_prog P -> NoDup tensors -> tensors <> [] -> ord <> [] -> valid_chunk k = true ->
  run RN P A (TJac tensors ord k retain) s
      (jac_dict P tensors (eye (total P tensors))) = (Ok d2, s2) ->
  s_grads s2 = s_grads s /\
  d2 = jac_dict P ord (jacobian P tensors ord).
Proof.
  intros Hwf Hnt Hte Hoe Hk H.
  split; [exact (no_acc_grads RN P A (TJac tensors ord k retain) _ _ _ _ eq_refl H)|].
  apply (jac_stage _ _ _ _ _ _ _ _ (total P tensors)) in H; try assumption.
  - rewrite H. unfold jac_dict, jacobian. cbn [dk]. f_equal.
    apply map_ext_in. intros r Hr. apply in_seq in Hr. rewrite jac_row_vjp by exact Hwf. f_equal.
    rewrite sdict_row by first [assumption | apply map_length | rewrite length_eye; lia].
    rewrite nth_eye by lia. apply map_ext. intros i. apply vjp_onehot; [exact Hwf | lia].
  - unfold jac_dict. rewrite nrows_sdict_hd by assumption. apply length_eye.
Qed.

Lemma aggregate_inv ord s d d' s' :
  NoDup ord -> ord <> [] ->
  (forall k, In k ord -> numel (t_trail (dget' d k)) = pnumel P k) ->
  run RN P A (TAggregate ord) s d = (Ok d', s') ->
  s' = s /\ exists v, A (unite ord d) = Ok v /\ length v = total P ord /\
    d' = mkDict KGradients (map (fun i => (i, plain (p_shape P i) (slice_of P ord v i))) ord).
Proof.
  intros Hnd Hne Htr H. unfold TAggregate in H.
  apply run_comp_inv in H. destruct H as (d4 & s4 & H & Hre).
  apply run_comp_inv in H. destruct H as (d3 & s3 & Hma & Hag).
  pose proof (run_keys_ok RN P A _ _ _ _ _ Hma) as Hkeys. cbn [required_keys] in Hkeys.
  apply run_matrixify_inv in Hma. destruct Hma as [-> Hd3].
  apply run_aggmat_inv in Hag. destruct Hag as [-> [[He _] | (_ & v & HA & Hlen & Hd4)]]; [congruence|].
  apply run_reshape_inv in Hre. destruct Hre as [-> Hd5].
  (* Matrixify keeps the rows of every value; the key check binds every key of ord in d, and
     Matrixify then leaves its number of columns as its trail *)
  assert (Hget3 : forall k, dget d3 k
            = option_map (fun t => mkTens true [numel (t_trail t)] (t_rows t)) (dget d k)).
  { intros k. rewrite Hd3.
    exact (assoc_map_val (fun _ t => mkTens true [numel (t_trail t)] (t_rows t)) (ditems d) k). }
  assert (Hrows : forall k, t_rows (dget' d3 k) = t_rows (dget' d k)).
  { intros k. unfold dget'. rewrite Hget3. destruct (dget d k); reflexivity. }
  assert (Hlens : map (fun k => hd O (t_trail (dget' d3 k))) ord = map (pnumel P) ord).
  { apply map_ext_in. intros k Hk. rewrite <- (Htr k Hk).
    destruct (proj1 (assoc_in_keys (ditems d) k)) as [t Et].
    { apply (proj1 (set_eqb_spec _ _) Hkeys). apply dedup_In. exact Hk. }
    change (dget d k = Some t) in Et. unfold dget'. rewrite Hget3, Et. reflexivity. }
  assert (Hun : unite ord d3 = unite ord d).
  { rewrite !unite_eq by exact Hne. unfold nrows. rewrite Hrows.
    apply map_ext. intros r. f_equal. apply map_ext. intros k. rewrite Hrows. reflexivity. }
  rewrite Hlens in Hlen, Hd4. rewrite Hun in HA.
  split; [reflexivity|]. exists v. split; [exact HA|]. split; [exact Hlen|].
  rewrite Hd5, Hd4. cbn [ditems]. rewrite map_map.
  exact (f_equal (mkDict KGradients) (slice_items P (fun i x => plain (p_shape P i) x) ord Hnd v)).
Qed.

Lemma aggregate_run kd b sh ord J s d5 s5 :
  NoDup ord -> ord <> [] -> wfmat (total P ord) J ->
  (forall jk, numel (sh jk) = pnumel P (snd jk)) ->
  run RN P A (TAggregate ord) s (sdict kd b sh (map (pnumel P) ord) J ord) = (Ok d5, s5) ->
  s5 = s /\ exists v, A J = Ok v /\ length v = total P ord /\
    d5 = mkDict KGradients (map (fun i => (i, plain (p_shape P i) (slice_of P ord v i))) ord).
Proof.
  intros Hnd Hne HJ Htr H. apply aggregate_inv in H; [|exact Hnd|exact Hne|].
  - rewrite unite_sdict in H by (first [assumption | apply map_length]). exact H.
  - intros k Hk. destruct (trail_sdict kd b sh (map (pnumel P) ord) J ord k Hnd Hk) as (j & _ & ->).
    apply Htr.
Qed.

Lemma aggregate_nil s d d' s' :
  run RN P A (TAggregate []) s d = (Ok d', s') -> s' = s /\ ditems d' = [].
Proof.
  intros H. unfold TAggregate in H.
  apply run_comp_inv in H. destruct H as (d4 & s4 & H & Hre).
  apply run_comp_inv in H. destruct H as (d3 & s3 & Hma & Hag).
  apply run_matrixify_inv in Hma. destruct Hma as [-> _].
  apply run_aggmat_inv in Hag. destruct Hag as [-> [[_ ->] | (Hc & _)]]; [|congruence].
  apply run_reshape_inv in Hre. destruct Hre as [-> ->]. split; reflexivity.
Qed.

Lemma grad_accumulate_same s i v :
  grad_val (accumulate_one RN s (i, v)) i = Some (acc_val (grad_val s i) v).
Proof.
  unfold grad_val, accumulate_one. cbn [fst snd].
  destruct (sget s i) as [g|] eqn:E; unfold sget, sset; cbn [s_grads assoc];
    rewrite Nat.eqb_refl; reflexivity.
Qed.

Lemma fold_accumulate_in items : forall s i v, NoDup (map fst items) -> In (i, v) items ->
  grad_val (fold_left (accumulate_one RN) items s) i = Some (acc_val (grad_val s i) v).
Proof.
  induction items as [|kv items IH]; intros s i v Hnd Hin; [contradiction|].
  cbn [map] in Hnd. apply NoDup_cons_iff in Hnd. destruct Hnd as [Hkv Hnd'].
  cbn [fold_left]. destruct Hin as [->|Hin].
  - cbn [fst] in Hkv. unfold grad_val at 1. rewrite fold_accumulate_other by exact Hkv.
    apply grad_accumulate_same.
  - rewrite (IH _ i v Hnd' Hin). f_equal. f_equal. unfold grad_val.
    rewrite sget_accumulate_other; [reflexivity|].
    intros ->. apply Hkv. apply in_map_iff. exists (fst kv, v). split; [reflexivity | exact Hin].
Qed.

Lemma accumulate_items (g : tid -> @tens R) l s : NoDup l ->
  (forall i, In i l ->
     grad_val (fold_left (accumulate_one RN) (map (fun i => (i, g i)) l) s) i
     = Some (acc_val (grad_val s i) (g i))) /\
  (forall t, ~ In t l ->
     sget (fold_left (accumulate_one RN) (map (fun i => (i, g i)) l) s) t = sget s t).
Proof.
  intros Hnd. split.
  - intros i Hi. apply fold_accumulate_in; [rewrite keys_of_items; exact Hnd|].
    exact (in_map (fun i => (i, g i)) l i Hi).
  - intros t Ht. apply fold_accumulate_other. rewrite keys_of_items. exact Ht.
Qed.

Lemma tail_run kd b sh ord J s d5 s5 d' s' :
  NoDup ord -> ord <> [] -> wfmat (total P ord) J ->
  (forall jk, numel (sh jk) = pnumel P (snd jk)) ->
  run RN P A (TAggregate ord) s (sdict kd b sh (map (pnumel P) ord) J ord) = (Ok d5, s5) ->
  run RN P A (TAccumulate ord) s5 d5 = (Ok d', s') ->
  exists v, A J = Ok v /\ length v = total P ord /\
    (forall i, In i ord ->
       grad_val s' i = Some (acc_val (grad_val s i) (plain (p_shape P i) (slice_of P ord v i)))) /\
    (forall t, ~ In t ord -> sget s' t = sget s t).
Proof.
  intros Hnd Hne HJ Htr Hagg Hacc.
  apply aggregate_run in Hagg; try assumption. destruct Hagg as (-> & v & HA & Hlv & ->).
  apply run_accumulate_inv in Hacc. destruct Hacc as (_ & _ & ->).
  exists v. split; [exact HA|]. split; [exact Hlv|].
  exact (accumulate_items (fun i => plain (p_shape P i) (slice_of P ord v i)) ord s Hnd).
Qed.

Lemma tail_nil s d d5 s5 d' s' :
  run RN P A (TAggregate []) s d = (Ok d5, s5) ->
  run RN P A (TAccumulate []) s5 d5 = (Ok d', s') -> s' = s.
Proof.
  intros Hagg Hacc. apply aggregate_nil in Hagg. destruct Hagg as [-> Hd5].
  apply run_accumulate_inv in Hacc. destruct Hacc as (_ & _ & ->). rewrite Hd5. reflexivity.
Qed.

(* the batch may be empty: no row, and the aggregator is applied to the matrix without rows *)
Lemma backward_deposit_any tensors ord k retain s d' s' :
  wf_prog P -> ord <> [] ->
  backward_model RN P A tensors ord k retain s = (Ok d', s') ->
  NoDup tensors /\ NoDup ord /\
  exists v, A (jacobian P tensors ord) = Ok v /\ length v = total P ord /\
    (forall i, In i ord ->
       grad_val s' i = Some (acc_val (grad_val s i) (plain (p_shape P i) (slice_of P ord v i)))) /\
    (forall t, ~ In t ord -> sget s' t = sget s t).
Proof.
  intros Hwf Hord H.
  apply backward_ok_inv in H. destruct H as [Eok H].
  apply backward_args_ok_spec in Eok. destruct Eok as (Hk & Hne & Hnt & Hno).
  split; [exact Hnt|]. split; [exact Hno|].
  apply pipeline_inv in H. destruct H as (d1 & s1 & d2 & s2 & d5 & s5 & Hid & Hjac & Hagg & Hacc).
  apply init_diag_run in Hid; [|exact Hnt]. destruct Hid as [-> ->].
  apply jac_run in Hjac; try assumption. destruct Hjac as [Hg ->].
  destruct (tail_run _ _ _ ord _ s2 d5 s5 d' s' Hno Hord (wfmat_jacobian P tensors ord Hwf)
              (fun _ => eq_refl) Hagg Hacc) as (v & HA & Hlv & Hin & Hout).
  exists v. split; [exact HA|]. split; [exact Hlv|]. split.
  - intros i Hi. rewrite <- (grad_val_grads_eq s2 s i Hg). exact (Hin i Hi).
  - intros t Ht. rewrite <- (sget_grads_eq s2 s t Hg). exact (Hout t Ht).
Qed.

Lemma backward_deposit : forall tensors ord k retain s d' s',
  wf_prog P -> ord <> [] -> (1 <= total P tensors)%nat ->
  backward_model RN P A tensors ord k retain s = (Ok d', s') ->
  NoDup tensors /\ NoDup ord /\
  exists v, A (jacobian P tensors ord) = Ok v /\ length v = total P ord /\
    (forall i, In i ord ->
       grad_val s' i = Some (acc_val (grad_val s i) (plain (p_shape P i) (slice_of P ord v i)))) /\
    (forall t, ~ In t ord -> sget s' t = sget s t).
Proof.
  intros tensors ord k retain s d' s' Hwf Hord _. apply backward_deposit_any; assumption.
Qed.

Lemma backward_no_inputs : forall tensors k retain s d' s',
  backward_model RN P A tensors [] k retain s = (Ok d', s') -> s_grads s' = s_grads s.
Proof.
  intros tensors k retain s d' s' H. apply backward_ok_inv in H. destruct H as [_ H].
  unfold backward_transform in H.
  apply run_comp_inv in H. destruct H as (d5 & s5 & H & Hacc).
  apply run_comp_inv in H. destruct H as (d2 & s2 & H & Hagg).
  rewrite (tail_nil _ _ _ _ _ _ Hagg Hacc). eapply (no_acc_grads RN P A); [|exact H]. reflexivity.
Qed.

End C01.

Print Assumptions backward_deposit.
Print Assumptions backward_no_inputs.
Print Assumptions unreachable_zero_block.
Print Assumptions jacobian_rows_app.
