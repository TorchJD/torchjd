(* TOTALITY of the entry points: an argument-valid call whose engine runs and aggregator call
   succeed IS accepted (none of the internal dictionary / key / chunk checks can get stuck), and
   conversely the only ways an argument-valid backward call can fail.
   Every transform is run FORWARD here: the counterpart of the inversion lemmas of C20Proofs and of
   the stage inversions of C01Proofs and C02Proofs, which say what the dictionaries are once a stage
   is known to succeed.  Both calls end as [finish] says; the theorems read that off. *)
From Coq Require Import Reals List Bool Arith Lia.
From TJ Require Import Num Linalg NumR Chunk Autojac.
From TJ.proofs Require Import LinalgR ChunkProofs AutojacBasics AutojacSpec EntrySpec
  C20Proofs C13Proofs C01Proofs C02Proofs.
Import ListNotations.
Local Open Scope R_scope.

(* the key check of a conjunction of two members that both require the keys a *)
Lemma set_eqb_dedup_twice (a : list tid) : set_eqb a (dedup (dedup a ++ dedup a ++ [])) = true.
Proof.
  apply set_eqb_spec. intros x. rewrite dedup_In, !in_app_iff, dedup_In. cbn [In]. tauto.
Qed.

Lemma check_dict_rows {X} k (m : nat) (g : X -> list nat) (l : list X) :
  k = KJacobians \/ k = KJacobianMatrices -> check_dict k (map (fun x => m :: g x) l) = true.
Proof.
  intros Hk.
  assert (E : forallb (fun s : list nat => match s with [] => false | _ => true end)
                      (map (fun x => m :: g x) l)
              && all_same (map (fun s => hd O s) (map (fun x => m :: g x) l)) = true).
  { rewrite map_map. cbn [hd]. apply andb_true_iff. split.
    - apply forallb_forall. intros sh Hs. apply in_map_iff in Hs. destruct Hs as (x & <- & _).
      reflexivity.
    - destruct l as [|x l]; [reflexivity|]. cbn [map all_same]. apply forallb_forall.
      intros y Hy. apply in_map_iff in Hy. destruct Hy as (x' & <- & _). apply Nat.eqb_refl. }
  destruct Hk as [-> | ->]; exact E.
Qed.

Section Accept.
Variable P : prog R.
Variable A : list (list R) -> res (list R).
Notation run := (run RN P A).

(* the items are given as the image of a list, which is how every _compute builds them *)
Lemma mk_dict_map {X} k (f : X -> tid * @tens R) (l : list X) :
  check_dict k (map (fun x => full_shape (snd (f x))) l) = true ->
  (forall x, In x l -> check_pair k (p_shape P (fst (f x))) (full_shape (snd (f x))) = true) ->
  mk_dict P k (map f l) = Ok (mkDict k (map f l)).
Proof.
  intros Hd Hp. unfold mk_dict, shapes_ok. rewrite !map_map. cbn [fst snd]. rewrite Hd.
  rewrite (proj2 (forallb_forall _ _)); [reflexivity|].
  intros p Hin. apply in_map_iff in Hin. destruct Hin as (x & <- & Hx). exact (Hp x Hx).
Qed.

Lemma mk_dict_grad {X} (f : X -> tid * @tens R) (l : list X) :
  (forall x, In x l -> full_shape (snd (f x)) = p_shape P (fst (f x))) ->
  mk_dict P KGradients (map f l) = Ok (mkDict KGradients (map f l)).
Proof.
  intros H. apply mk_dict_map; [reflexivity|]. intros x Hx. cbn [check_pair].
  rewrite (H x Hx). apply list_eqb_refl.
Qed.

Lemma mk_dict_gvec {X} (f : X -> tid * @tens R) (l : list X) :
  (forall x, In x l -> full_shape (snd (f x)) = [numel (p_shape P (fst (f x)))]) ->
  mk_dict P KGradientVectors (map f l) = Ok (mkDict KGradientVectors (map f l)).
Proof.
  intros H. apply mk_dict_map; [reflexivity|]. intros x Hx. rewrite (H x Hx). cbn [check_pair].
  apply Nat.eqb_refl.
Qed.

Lemma mk_dict_jac {X} (m : nat) (key : X -> tid) (rows : X -> list (list R)) (l : list X) :
  (forall x, In x l -> length (rows x) = m) ->
  mk_dict P KJacobians (map (fun x => (key x, mkTens true (p_shape P (key x)) (rows x))) l)
  = Ok (mkDict KJacobians (map (fun x => (key x, mkTens true (p_shape P (key x)) (rows x))) l)).
Proof.
  intros H. apply mk_dict_map; cbn [fst snd]; unfold full_shape; cbn [t_batched t_rows t_trail].
  - rewrite (map_ext_in _ (fun x => m :: p_shape P (key x)) l)
      by (intros x Hx; rewrite (H x Hx); reflexivity).
    apply check_dict_rows. left. reflexivity.
  - intros x _. cbn [check_pair]. apply list_eqb_refl.
Qed.

Lemma mk_dict_jacmat {X} (m : nat) (f : X -> tid * @tens R) (l : list X) :
  (forall x, In x l -> full_shape (snd (f x)) = [m; numel (p_shape P (fst (f x)))]) ->
  mk_dict P KJacobianMatrices (map f l) = Ok (mkDict KJacobianMatrices (map f l)).
Proof.
  intros H. apply mk_dict_map.
  - rewrite (map_ext_in (fun x => full_shape (snd (f x)))
                        (fun x => m :: [numel (p_shape P (fst (f x)))]) l H).
    apply check_dict_rows. right. reflexivity.
  - intros x Hx. rewrite (H x Hx). cbn [check_pair]. apply Nat.eqb_refl.
Qed.

Lemma fwd_run_init vals s d : dkeys d = [] ->
  run (TInit vals) s d
  = (Ok (mkDict KGradients
           (map (fun v => (v, plain (p_shape P v) (vones RN (pnumel P v)))) (dedup vals))), s).
Proof.
  intros Hd. rewrite run_body_eq by (rewrite Hd; reflexivity).
  cbn [run_body]. unfold lift, init_compute. rewrite mk_dict_grad; [reflexivity|].
  intros v _. reflexivity.
Qed.

Lemma fwd_run_diag c s d : c <> [] -> set_eqb (dkeys d) (dedup c) = true ->
  exists d', run (TDiag c) s d = (Ok d', s).
Proof.
  intros Hc Hk. rewrite run_body_eq by exact Hk. cbn [run_body]. unfold lift, diag_compute.
  destruct c as [|k0 c]; [congruence|]. cbv zeta.
  erewrite mk_dict_jac; [eexists; reflexivity|].
  intros jk _. rewrite !map_length, seq_length. reflexivity.
Qed.

Lemma fwd_run_jac outs ins k retain s d :
  outs <> [] -> ins <> [] -> valid_chunk k = true ->
  set_eqb (dkeys d) (dedup outs) = true -> dk d = KJacobians ->
  (1 <= nrows (dget' d (hd O outs)))%nat ->
  sweep_ok P s outs ins = true ->
  exists d' s', run (TJac outs ins k retain) s d = (Ok d', s').
Proof.
  intros Ho Hi Hk Hkeys Hdk Hm Hok. rewrite run_body_eq by exact Hkeys. cbn [run_body].
  unfold jac_compute.
  destruct ins as [|i0 ins]; [congruence|]. destruct outs as [|o0 outs]; [congruence|].
  cbn [hd] in Hm. cbv zeta.
  pose proof (valid_chunk_pos _ k Hk Hm) as Hmc. revert Hmc.
  destruct (max_chunk (nrows (dget' d o0)) k) as [|mc]; intros Hmc; [destruct (Nat.nle_succ_0 _ Hmc)|].
  cbn [Nat.eqb].
  rewrite (jac_chunks_eq RN P), Hok, Hdk. erewrite mk_dict_jac; [eexists; eexists; reflexivity|].
  intros ji _. rewrite !map_length. reflexivity.
Qed.

Lemma fwd_run_grad outs ins retain s d :
  outs <> [] -> ins <> [] -> set_eqb (dkeys d) (dedup outs) = true -> dk d = KGradients ->
  sweep_ok P s outs ins = true ->
  exists g s', run (TGrad outs ins retain) s d
    = (Ok (mkDict KGradients (map (fun i => (i, plain (p_shape P i) (g i))) ins)), s').
Proof.
  intros Ho Hi Hkeys Hdk Hok. rewrite run_body_eq by exact Hkeys. cbn [run_body].
  rewrite (grad_compute_eq RN P outs ins retain s d Ho Hi), Hok, Hdk.
  rewrite mk_dict_grad; [|intros i _; reflexivity].
  eexists (fun i => materialize RN P i (ag_value RN P _ _ i)). eexists. reflexivity.
Qed.

Lemma fwd_run_select keys req s d :
  set_eqb (dkeys d) (dedup req) = true -> dk d = KGradients ->
  (forall k, In k keys -> full_shape (dget' d k) = p_shape P k) ->
  run (TSelect keys req) s d
  = (Ok (mkDict KGradients (map (fun k => (k, dget' d k)) (dedup keys))), s).
Proof.
  intros Hk Hdk Hsh. rewrite run_body_eq by exact Hk. cbn [run_body].
  unfold lift, select_compute. rewrite Hdk. rewrite mk_dict_grad; [reflexivity|].
  intros k Hin. apply Hsh. apply dedup_In. exact Hin.
Qed.

Lemma jac_dict_keys_ok ord J : set_eqb (dkeys (jac_dict P ord J)) (dedup ord) = true.
Proof. unfold jac_dict. rewrite dkeys_sdict. apply set_eqb_dedup_r. Qed.

(* what Matrixify makes of [jac_dict P ord J] *)
Definition mat_dict (ord : list tid) (J : list (list R)) : @tdict R :=
  sdict KJacobianMatrices true (fun jk => [pnumel P (snd jk)]) (map (pnumel P) ord) J ord.

Lemma fwd_run_matrixify ord J s :
  run (TMatrixify ord) s (jac_dict P ord J) = (Ok (mat_dict ord J), s).
Proof.
  rewrite run_body_eq by apply jac_dict_keys_ok. cbn [run_body].
  unfold lift, matrixify_compute, jac_dict, mat_dict, sdict. cbn [ditems]. rewrite map_map.
  cbn [fst snd t_trail t_rows]. erewrite mk_dict_jacmat; [reflexivity|].
  intros ji _. cbn [fst snd]. unfold full_shape. cbn [t_batched t_rows t_trail].
  rewrite !map_length. reflexivity.
Qed.

Lemma fwd_run_aggmat ord J s : NoDup ord -> ord <> [] -> wfmat (total P ord) J ->
  run (TAggMat ord) s (mat_dict ord J)
  = match A J with
    | Err e => (Err e, s)
    | Ok v =>
        if negb (length v =? total P ord)%nat then (Err ValueError, s) else
        (mk_dict P KGradientVectors
           (map (fun kp => (fst kp, mkTens false [length (snd kp)] [snd kp]))
                (combine ord (split_by (map (pnumel P) ord) v))), s)
    end.
Proof.
  intros Hnd Hne HJ. unfold mat_dict.
  rewrite run_body_eq by (rewrite dkeys_sdict; apply set_eqb_dedup_r).
  cbn [run_body]. unfold lift. rewrite (aggmat_compute_eq P A ord _ Hne). cbv zeta.
  rewrite (sdict_trail_heads _ _ (pnumel P)) by exact Hnd.
  rewrite unite_sdict by (first [assumption | apply map_length]).
  destruct (A J) as [v|e]; [|reflexivity].
  change (fold_right Nat.add O (map (pnumel P) ord)) with (total P ord).
  destruct (negb (length v =? total P ord)%nat); reflexivity.
Qed.

Lemma fwd_run_reshape ks s d : set_eqb (dkeys d) (dedup ks) = true ->
  run (TReshape ks) s d
  = (Ok (mkDict KGradients
           (map (fun kv => (fst kv, mkTens false (p_shape P (fst kv)) (t_rows (snd kv)))) (ditems d))), s).
Proof.
  intros Hk. rewrite run_body_eq by exact Hk. cbn [run_body]. unfold lift, reshape_compute.
  rewrite mk_dict_grad; [reflexivity|]. intros kv _. reflexivity.
Qed.

Lemma fwd_run_accumulate ks s d : set_eqb (dkeys d) (dedup ks) = true ->
  run (TAccumulate ks) s d
  = if expects_all P (dkeys d) then (Ok empty_dict, fold_left (accumulate_one RN) (ditems d) s)
    else (Err ValueError, s).
Proof. intros Hk. rewrite run_body_eq by exact Hk. reflexivity. Qed.

Lemma keys_split_items {Y} (g : tid * list R -> Y) ord (v : list R) :
  map fst (map (fun kp => (fst kp, g kp)) (combine ord (split_by (map (pnumel P) ord) v))) = ord.
Proof.
  rewrite map_map. cbn [fst]. apply map_fst_combine. rewrite split_by_length, map_length.
  reflexivity.
Qed.

Lemma split_piece_length : forall ord (v : list R) k (p : list R), (length v = total P ord)%nat ->
  In (k, p) (combine ord (split_by (map (pnumel P) ord) v)) -> length p = pnumel P k.
Proof.
  induction ord as [|x ord IH]; intros v k p Hlen Hin; [contradiction|].
  rewrite total_cons in Hlen. cbn [map split_by combine] in Hin. destruct Hin as [Hin|Hin].
  - injection Hin as <- <-. rewrite firstn_length. lia.
  - apply (IH (skipn (pnumel P x) v) k p); [|exact Hin]. rewrite skipn_length. lia.
Qed.

(* what Aggregate returns: the dictionary of C01Proofs.aggregate_inv *)
Definition grad_dict (ord : list tid) (v : list R) : @tdict R :=
  mkDict KGradients (map (fun i => (i, plain (p_shape P i) (slice_of P ord v i))) ord).

(* Aggregate = Reshape . AggregateMatrices . Matrixify *)
Lemma fwd_run_aggregate ord J s : NoDup ord -> ord <> [] -> wfmat (total P ord) J ->
  run (TAggregate ord) s (jac_dict P ord J)
  = match A J with
    | Err e => (Err e, s)
    | Ok v => if (length v =? total P ord)%nat then (Ok (grad_dict ord v), s)
              else (Err ValueError, s)
    end.
Proof.
  intros Hnd Hne HJ. unfold TAggregate.
  rewrite (run_body_eq RN P A (TComp (TReshape ord) _)) by apply jac_dict_keys_ok. cbn [run_body].
  rewrite (run_body_eq RN P A (TComp (TAggMat ord) _)) by apply jac_dict_keys_ok. cbn [run_body].
  rewrite fwd_run_matrixify, fwd_run_aggmat by assumption.
  destruct (A J) as [v|e]; [|reflexivity].
  destruct (Nat.eqb_spec (length v) (total P ord)) as [Hlen|_]; cbn [negb]; [|reflexivity].
  rewrite mk_dict_gvec.
  - rewrite fwd_run_reshape.
    + cbn [ditems]. rewrite map_map.
      exact (f_equal (fun items => (Ok (mkDict KGradients items), s))
                     (slice_items P (fun i x => plain (p_shape P i) x) ord Hnd v)).
    + unfold dkeys. cbn [ditems]. rewrite keys_split_items. apply set_eqb_dedup_r.
  - intros [k piece] Hin. cbn [fst snd]. unfold full_shape. cbn [t_batched t_trail app].
    rewrite (split_piece_length ord v k piece Hlen Hin). reflexivity.
Qed.

(* how a call ends once the front of its pipeline has put the dictionary of a matrix J on the
   table in store s2: with the aggregator, its length check, and the expects-grad check of
   Accumulate *)
Definition finish (ord : list tid) (J : list (list R)) (s2 : @store R) : res (@tdict R) * store :=
  match A J with
  | Err e => (Err e, s2)
  | Ok v =>
      if (length v =? total P ord)%nat then
        if expects_all P ord
        then (Ok empty_dict, fold_left (accumulate_one RN) (ditems (grad_dict ord v)) s2)
        else (Err ValueError, s2)
      else (Err ValueError, s2)
  end.

Lemma finish_ok ord J s2 v :
  A J = Ok v -> length v = total P ord -> expects_all P ord = true ->
  exists s', finish ord J s2 = (Ok empty_dict, s').
Proof.
  intros HA Hlen Hex. unfold finish. rewrite HA, Hlen, Nat.eqb_refl, Hex. eexists. reflexivity.
Qed.

Lemma finish_err ord J s2 e s' : finish ord J s2 = (Err e, s') ->
  A J = Err e \/ (exists v, A J = Ok v /\ length v <> total P ord) \/ expects_all P ord = false.
Proof.
  unfold finish. intros H.
  destruct (A J) as [v|e1]; [right | left; injection H as -> _; reflexivity].
  destruct (Nat.eqb_spec (length v) (total P ord)) as [_|Hlen];
    [right | left; exists v; split; [reflexivity | exact Hlen]].
  destruct (expects_all P ord); [discriminate H | reflexivity].
Qed.

Lemma fwd_run_tail front ord J s d s2 : NoDup ord -> ord <> [] -> wfmat (total P ord) J ->
  run front s d = (Ok (jac_dict P ord J), s2) ->
  run (TComp (TAccumulate ord) (TComp (TAggregate ord) front)) s d = finish ord J s2.
Proof.
  intros Hnd Hne HJ Hf.
  rewrite (run_body_eq RN P A (TComp (TAccumulate ord) _)) by exact (run_keys_ok RN P A _ _ _ _ _ Hf).
  cbn [run_body]. rewrite (run_comp_ok RN P A _ _ _ _ _ _ Hf), fwd_run_aggregate by assumption.
  unfold finish. destruct (A J) as [v|e]; [|reflexivity].
  destruct (length v =? total P ord)%nat; [|reflexivity]. cbv beta iota.
  assert (Hk : dkeys (grad_dict ord v) = ord) by apply dkeys_items.
  rewrite fwd_run_accumulate by (rewrite Hk; apply set_eqb_dedup_r).
  rewrite Hk. reflexivity.
Qed.

Lemma fwd_init_diag_run tensors s : NoDup tensors -> tensors <> [] ->
  run (TComp (TDiag tensors) (TInit tensors)) s empty_dict
  = (Ok (jac_dict P tensors (eye (total P tensors))), s).
Proof.
  intros Hnd Hne.
  destruct (fwd_run_diag tensors s
              (mkDict KGradients
                 (map (fun v => (v, plain (p_shape P v) (vones RN (pnumel P v)))) (dedup tensors))) Hne)
    as [d1 H1].
  { rewrite dkeys_items. apply set_eqb_refl. }
  rewrite <- (run_comp_ok RN P A _ _ _ _ _ _ (fwd_run_init tensors s empty_dict eq_refl)) in H1.
  destruct (init_diag_run P A tensors s d1 s Hnd H1) as [_ ->]. exact H1.
Qed.

Lemma fwd_backward_front tensors ord k retain s :
  wf_prog P -> valid_chunk k = true -> tensors <> [] -> NoDup tensors -> ord <> [] ->
  (1 <= total P tensors)%nat -> sweep_ok P s tensors ord = true ->
  exists s2,
    run (TComp (TJac tensors ord k retain) (TComp (TDiag tensors) (TInit tensors))) s empty_dict
    = (Ok (jac_dict P ord (jacobian P tensors ord)), s2).
Proof.
  intros Hwf Hk Hte Hnt Hoe Hm Hok.
  rewrite (run_comp_ok RN P A _ _ _ _ _ _ (fwd_init_diag_run tensors s Hnt Hte)).
  destruct (fwd_run_jac tensors ord k retain s (jac_dict P tensors (eye (total P tensors)))
              Hte Hoe Hk (jac_dict_keys_ok _ _) eq_refl) as (d2 & s2 & H2).
  - unfold jac_dict. rewrite nrows_sdict_hd, length_eye by assumption. exact Hm.
  - exact Hok.
  - destruct (jac_run P A tensors ord k retain s d2 s2 Hwf Hnt Hte Hoe Hk H2) as [_ ->].
    exists s2. exact H2.
Qed.

Lemma backward_outcome tensors ord k retain s :
  wf_prog P -> backward_args_ok tensors ord k retain = true -> ord <> [] ->
  (1 <= total P tensors)%nat -> sweep_ok P s tensors ord = true ->
  exists s2, backward_model RN P A tensors ord k retain s = finish ord (jacobian P tensors ord) s2.
Proof.
  intros Hwf Hargs Hoe Hm Hok. rewrite (backward_model_eq RN P A), Hargs.
  apply backward_args_ok_spec in Hargs. destruct Hargs as (Hk & Hte & Hnt & Hno).
  destruct (fwd_backward_front tensors ord k retain s Hwf Hk Hte Hnt Hoe Hm Hok) as [s2 H2].
  exists s2. exact (fwd_run_tail _ _ _ _ _ _ Hno Hoe (wfmat_jacobian P tensors ord Hwf) H2).
Qed.

Lemma backward_accepts : forall tensors ord k retain s v,
  wf_prog P ->
  valid_chunk k = true -> tensors <> [] -> NoDup tensors -> NoDup ord -> ord <> [] ->
  (1 <= total P tensors)%nat ->
  expects_all P ord = true ->
  sweep_ok P s tensors ord = true ->
  A (jacobian P tensors ord) = Ok v -> length v = total P ord ->
  exists d' s', backward_model RN P A tensors ord k retain s = (Ok d', s').
Proof.
  intros tensors ord k retain s v Hwf Hk Hte Hnt Hno Hoe Hm Hex Hok HA Hlen.
  destruct (backward_outcome tensors ord k retain s Hwf
              (proj2 (backward_args_ok_spec _ _ _ _) (conj Hk (conj Hte (conj Hnt Hno)))) Hoe Hm Hok) as [s2 ->].
  exists empty_dict. exact (finish_ok _ _ s2 v HA Hlen Hex).
Qed.

Lemma backward_failure_causes : forall tensors ord k retain s e s',
  wf_prog P -> backward_args_ok tensors ord k retain = true -> ord <> [] ->
  (1 <= total P tensors)%nat ->
  backward_model RN P A tensors ord k retain s = (Err e, s') ->
  sweep_ok P s tensors ord = false \/
  A (jacobian P tensors ord) = Err e \/
  (exists v, A (jacobian P tensors ord) = Ok v /\ length v <> total P ord) \/
  expects_all P ord = false.
Proof.
  intros tensors ord k retain s e s' Hwf Hargs Hoe Hm Hfail.
  destruct (sweep_ok P s tensors ord) eqn:Hok; [|left; reflexivity]. right.
  destruct (backward_outcome tensors ord k retain s Hwf Hargs Hoe Hm Hok) as [s2 E].
  rewrite E in Hfail. exact (finish_err _ _ _ _ _ Hfail).
Qed.

Lemma fwd_run_conj features ps d s :
  NoDup (ps ++ features) -> expects_all P ps = true ->
  dk d = KGradients -> dkeys d = ps ++ features ->
  (forall k, In k (ps ++ features) -> full_shape (dget' d k) = p_shape P k) ->
  exists dt st,
    run (TConj [TSelect features (ps ++ features);
                TComp (TAccumulate ps) (TSelect ps (ps ++ features))]) s d = (Ok dt, st).
Proof.
  intros Hnd Hex Hdk Hkeys Hsh.
  assert (Hk1 : set_eqb (dkeys d) (dedup (ps ++ features)) = true)
    by (rewrite Hkeys; apply set_eqb_dedup_r).
  rewrite run_body_eq by (rewrite Hkeys; apply set_eqb_dedup_twice).
  cbn [run_body]. rewrite (run_list_cons RN P A).
  rewrite (fwd_run_select features _ s d Hk1 Hdk (fun k Hk => Hsh k (in_or_app _ _ _ (or_intror Hk)))).
  rewrite (run_list_cons RN P A).
  rewrite (run_comp_ok RN P A _ _ _ _ _ _
             (fwd_run_select ps _ s d Hk1 Hdk (fun k Hk => Hsh k (in_or_app _ _ _ (or_introl Hk))))).
  rewrite fwd_run_accumulate by (rewrite dkeys_items; apply set_eqb_refl).
  rewrite dkeys_items.
  rewrite (dedup_id _ (NoDup_app_l _ _ Hnd)), Hex, (run_list_nil RN P A).
  unfold union_dicts. cbn [fold_left flat_map dk ditems empty_dict lca app]. rewrite !app_nil_r.
  rewrite mk_dict_grad; [eexists; eexists; reflexivity|].
  intros k Hin. apply Hsh. apply in_or_app. right. apply dedup_In. exact Hin.
Qed.

Lemma fwd_task_run features ps loss retain s :
  features <> [] -> NoDup (ps ++ features) -> expects_all P ps = true ->
  sweep_ok P s [loss] (ps ++ features) = true ->
  exists dt st, run (task_transform features ps loss retain) s empty_dict = (Ok dt, st).
Proof.
  intros Hfe Hnd Hex Hok. unfold task_transform. cbv zeta.
  destruct (fwd_run_grad [loss] (ps ++ features) retain s
              (mkDict KGradients
                 (map (fun v => (v, plain (p_shape P v) (vones RN (pnumel P v)))) (dedup [loss]))))
    as (g & s1 & H1); [discriminate | | | reflexivity | exact Hok |].
  - intros E. apply app_eq_nil in E. destruct E as [_ E]. exact (Hfe E).
  - rewrite dkeys_items. apply set_eqb_refl.
  - rewrite <- (run_comp_ok RN P A _ _ _ _ _ _ (fwd_run_init [loss] s empty_dict eq_refl)) in H1.
    rewrite (run_comp_ok RN P A _ _ _ _ _ _ H1).
    apply fwd_run_conj; [exact Hnd | exact Hex | reflexivity | apply dkeys_items |].
    intros k Hk. rewrite (dget'_items (fun i => plain (p_shape P i) (g i)) KGradients _ k Hk).
    reflexivity.
Qed.

Lemma fwd_tasks_run features retain : forall (tl : list (list tid * tid)) s,
  features <> [] ->
  (forall ps l, In (ps, l) tl -> NoDup (ps ++ features) /\ expects_all P ps = true) ->
  heads_ok P features retain (s_freed s) tl ->
  exists ds s1,
    run_list RN P A empty_dict
      (map (fun pl => task_transform features (fst pl) (snd pl) retain) tl) s = (Ok ds, s1).
Proof.
  induction tl as [|[ps l] tl IH]; intros s Hfe Hall Hh.
  - exists [], s. reflexivity.
  - destruct Hh as [H0 Hh]. destruct (Hall ps l (or_introl eq_refl)) as [Hnd Hex].
    destruct (fwd_task_run features ps l retain s Hfe Hnd Hex H0) as (dt & st & Ht).
    pose proof (task_run_freed RN P A features ps l retain s empty_dict dt st Hfe Ht) as Hfr.
    change (s_freed st = fstep P features retain (s_freed s) (ps, l)) in Hfr.
    rewrite <- Hfr in Hh.
    destruct (IH st Hfe (fun ps' l' Hin => Hall ps' l' (or_intror Hin)) Hh) as (ds & s1 & Hl).
    exists (dt :: ds), s1. cbn [map fst snd].
    rewrite (run_list_cons RN P A), Ht, Hl. reflexivity.
Qed.

Lemma tasks_required_nil features retain (tl : list (list tid * tid)) :
  flat_map required_keys (map (fun pl => task_transform features (fst pl) (snd pl) retain) tl) = [].
Proof.
  induction tl as [|pl tl IH]; [reflexivity|]. cbn [map flat_map]. rewrite IH. reflexivity.
Qed.

Lemma stack_dicts_eq (ds : list (@tdict R)) :
  stack_dicts RN P ds
  = Ok (mkDict KJacobians
          (map (fun k => (k, mkTens true (p_shape P k)
                  (map (fun d => match dget d k with
                                 | Some v => flat v
                                 | None => vzero RN (pnumel P k)
                                 end) ds))) (dedup (flat_map dkeys ds)))).
Proof.
  unfold stack_dicts. cbv zeta. erewrite mk_dict_jac; [reflexivity|].
  intros k0 _. rewrite map_length. reflexivity.
Qed.

Lemma fwd_stack_run losses features tasks retain s ds s1 :
  wf_prog P -> features <> [] -> losses <> [] -> NoDup features -> length losses = length tasks ->
  (forall ps l, In (ps, l) (combine tasks losses) -> NoDup (ps ++ features) /\ p_shape P l = []) ->
  run_list RN P A empty_dict
    (map (fun pl => task_transform features (fst pl) (snd pl) retain) (combine tasks losses)) s
    = (Ok ds, s1) ->
  exists dS,
    run (TStack (map (fun pl => task_transform features (fst pl) (snd pl) retain)
                     (combine tasks losses))) s empty_dict = (Ok dS, s1) /\
    dk dS = KJacobians /\ dkeys dS = features /\
    forall f, In f features -> t_rows (dget' dS f) = map (fun l => grad_of P l f) losses.
Proof.
  intros Hwf Hfe Hle Hnf Hlen Hall Hl.
  destruct (tasks_run P A features retain (combine tasks losses) s ds s1 Hwf Hfe Hall Hl)
    as (Hds & _ & _).
  rewrite <- (map_map snd (fun l => map (fun f => (f, plain (p_shape P f) (grad_of P l f))) features)),
    (map_snd_combine tasks losses (eq_sym Hlen)) in Hds.
  eexists. split; [|split; [|split]].
  - rewrite run_body_eq by (cbn [required_keys]; rewrite tasks_required_nil; reflexivity).
    cbn [run_body]. rewrite Hl, stack_dicts_eq. reflexivity.
  - reflexivity.
  - rewrite dkeys_items.
    exact (stack_keys _ features ds losses Hle Hnf Hds).
  - exact (proj2 (stack_of_tasks P features ds losses _ Hle Hnf Hds (stack_dicts_eq ds))).
Qed.

(* the engine condition for ONE value of the retain flag: every engine run issued by the call
   succeeds in the state in which it is issued *)
Definition mtl_engine_ok_at (retain : bool) (s : @store R) (losses features : list tid)
           (tasks : list (list tid)) (shared : list tid) : Prop :=
  let step := fun (fr : list nid) (pl : list tid * tid) =>
                if retain then fr else fr ++ saved_exec P [snd pl] (fst pl ++ features) in
  (forall n, (n < length (combine tasks losses))%nat ->
     let fr := fold_left step (firstn n (combine tasks losses)) (s_freed s) in
     let pl := nth n (combine tasks losses) ([], O) in
     sweep_ok P (mkStore (s_grads s) fr (s_log s) (s_next s)) [snd pl] (fst pl ++ features) = true) /\
  sweep_ok P (mkStore (s_grads s) (fold_left step (combine tasks losses) (s_freed s)) (s_log s) (s_next s))
           features shared = true.

Definition mtl_engine_ok (s : @store R) (losses features : list tid) (tasks : list (list tid))
           (shared : list tid) : Prop :=
  (* the freed sets met by the successive runs when retain = false are s_freed s extended task by
     task; requiring success of every run in the state where ALL earlier runs have freed their
     nodes is the sequential condition *)
  forall retain : bool,
    let step := fun (fr : list nid) (pl : list tid * tid) =>
                  if retain then fr else fr ++ saved_exec P [snd pl] (fst pl ++ features) in
    (forall n, (n < length (combine tasks losses))%nat ->
       let fr := fold_left step (firstn n (combine tasks losses)) (s_freed s) in
       let pl := nth n (combine tasks losses) ([], O) in
       sweep_ok P (mkStore (s_grads s) fr (s_log s) (s_next s)) [snd pl] (fst pl ++ features) = true) /\
    sweep_ok P (mkStore (s_grads s) (fold_left step (combine tasks losses) (s_freed s)) (s_log s) (s_next s))
             features shared = true.

Lemma mtl_engine_ok_at_heads : forall retain s losses features tasks shared,
  mtl_engine_ok_at retain s losses features tasks shared <->
  engine_ok P features retain (s_freed s) (combine tasks losses) shared.
Proof.
  intros retain s losses features tasks shared. unfold engine_ok. rewrite heads_ok_nth. reflexivity.
Qed.

Lemma fwd_mtl_front losses features tasks shared k retain s :
  wf_prog P -> shared <> [] ->
  mtl_args_ok P losses features tasks shared k retain = true ->
  mtl_engine_ok_at retain s losses features tasks shared ->
  exists s2,
    run (TComp (TJac features shared k retain)
           (TStack (map (fun pl => task_transform features (fst pl) (snd pl) retain)
                        (combine tasks losses)))) s empty_dict
    = (Ok (jac_dict P shared (mtl_matrix P features shared losses)), s2).
Proof.
  intros Hwf Hse Hargs Heng. apply mtl_engine_ok_at_heads in Heng. destruct Heng as [Htasks Htrunk].
  apply (mtl_args_ok_spec P) in Hargs.
  destruct Hargs as (Hk & Hfe & _ & Hsh & Hle & Hlen & Hexp & Hnf & _ & Hnt).
  destruct (fwd_tasks_run features retain (combine tasks losses) s Hfe) as (ds & s1 & Hl).
  { intros ps l Hin. split; [exact (Hnt ps l Hin)|]. apply forallb_forall. intros q Hq.
    apply Hexp. apply in_or_app. right. apply in_concat. exists ps.
    split; [exact (in_combine_l _ _ _ _ Hin) | exact Hq]. }
  { exact Htasks. }
  destruct (fwd_stack_run losses features tasks retain s ds s1 Hwf Hfe Hle Hnf Hlen)
    as (dS & HS & Hdk & Hkeys & Hrows); [|exact Hl|].
  { intros ps l Hin. split; [exact (Hnt ps l Hin) | exact (Hsh l (in_combine_r _ _ _ _ Hin))]. }
  destruct (tasks_run_engine RN P A features retain empty_dict _ Hfe _ _ _ Hl) as (_ & Hf1 & _).
  rewrite (run_comp_ok RN P A _ _ _ _ _ _ HS).
  destruct (fwd_run_jac features shared k retain s1 dS Hfe Hse Hk) as (d2 & s2 & H2).
  - rewrite Hkeys. apply set_eqb_dedup_r.
  - exact Hdk.
  - unfold nrows. rewrite Hrows, map_length; [|exact (nth_error_In _ _ (nth_error_hd features Hfe))].
    destruct losses; [congruence | apply le_n_S, Nat.le_0_l].
  - change (sweep_ok_fr P (s_freed s1) features shared = true). rewrite Hf1. exact Htrunk.
  - destruct (jac_run_mtl P A features shared k retain s1 dS d2 s2 losses
                Hwf Hfe Hse Hk Hdk Hrows H2) as [_ ->].
    exists s2. exact H2.
Qed.

Lemma mtl_outcome losses features tasks shared k retain s :
  wf_prog P -> shared <> [] ->
  mtl_args_ok P losses features tasks shared k retain = true ->
  mtl_engine_ok_at retain s losses features tasks shared ->
  expects_all P shared = true /\
  exists s2, mtl_backward_model RN P A losses features tasks shared k retain s
             = finish shared (mtl_matrix P features shared losses) s2.
Proof.
  intros Hwf Hse Hargs Heng. rewrite (mtl_backward_model_eq RN P A), Hargs.
  destruct (fwd_mtl_front losses features tasks shared k retain s Hwf Hse Hargs Heng) as [s2 H2].
  apply (mtl_args_ok_spec P) in Hargs. destruct Hargs as (_ & _ & _ & _ & _ & _ & Hexp & _ & Hns & _).
  split.
  - apply forallb_forall. intros q Hq. apply Hexp, in_or_app. left. exact Hq.
  - exists s2.
    exact (fwd_run_tail _ _ _ _ _ _ Hns Hse (wfmat_mtl_matrix P features shared losses Hwf) H2).
Qed.

Lemma mtl_accepts_at : forall losses features tasks shared k retain s v,
  wf_prog P -> shared <> [] ->
  mtl_args_ok P losses features tasks shared k retain = true ->
  mtl_engine_ok_at retain s losses features tasks shared ->
  A (mtl_matrix P features shared losses) = Ok v -> length v = total P shared ->
  exists d' s', mtl_backward_model RN P A losses features tasks shared k retain s = (Ok d', s').
Proof.
  intros losses features tasks shared k retain s v Hwf Hse Hargs Heng HA Hlen.
  destruct (mtl_outcome losses features tasks shared k retain s Hwf Hse Hargs Heng) as (Hex & s2 & ->).
  exists empty_dict. exact (finish_ok _ _ s2 v HA Hlen Hex).
Qed.

Lemma mtl_accepts : forall losses features tasks shared k retain s v,
  wf_prog P -> shared <> [] ->
  mtl_args_ok P losses features tasks shared k retain = true ->
  mtl_engine_ok s losses features tasks shared ->
  A (mtl_matrix P features shared losses) = Ok v -> length v = total P shared ->
  exists d' s', mtl_backward_model RN P A losses features tasks shared k retain s = (Ok d', s').
Proof.
  intros losses features tasks shared k retain s v Hwf Hse Hargs Heng.
  exact (mtl_accepts_at losses features tasks shared k retain s v Hwf Hse Hargs (Heng retain)).
Qed.

End Accept.

Print Assumptions backward_accepts.
Print Assumptions backward_failure_causes.
Print Assumptions mtl_accepts.
Print Assumptions mtl_accepts_at.
