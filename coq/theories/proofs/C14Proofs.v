(* The constructor checks of a transform term ([wf]) read, constructor by constructor, as
   statements about key sets.  A run that succeeds returns a dictionary with exactly the keys and
   the type the term declares; the constructor checks play no part, since [run] tests the keys at
   every node.  Composition is associative outright.  A term without Accumulate, Grad or Jac
   neither writes nor reads the store; for two such members the Conjunction is commutative up to
   the order of the items, because the checks of [mk_dict] do not see that order. *)
From Coq Require Import List Bool Arith Permutation.
From TJ Require Import Num Chunk Autojac.
From TJ.proofs Require Import AutojacBasics C20Proofs.
Import ListNotations.

Lemma dedup_NoDup : forall l, NoDup (dedup l).
Proof. intros l. apply NoDup_nodup. Qed.

Lemma lca_comm : forall a b, lca a b = lca b a.
Proof. intros a b. destruct a, b; reflexivity. Qed.

Lemma lca_assoc : forall a b c, lca (lca a b) c = lca a (lca b c).
Proof. intros a b c. destruct a, b, c; reflexivity. Qed.

Lemma lca_idem : forall a, lca a a = a.
Proof. intros a. destruct a; reflexivity. Qed.

Lemma lca_upper : forall a b, subkind a (lca a b) = true /\ subkind b (lca a b) = true.
Proof. intros a b. destruct a, b; split; reflexivity. Qed.

Lemma lca_least : forall a b c, subkind a c = true -> subkind b c = true -> subkind (lca a b) c = true.
Proof.
  intros a b c Ha Hb.
  (* lca a b is a, or b, or, for two different non-empty kinds, KPlain, below KPlain only *)
  destruct a, b; try exact Ha; try exact Hb;
    destruct c; try reflexivity; discriminate Ha || discriminate Hb.
Qed.

Lemma forallb_perm : forall {X} (f : X -> bool) l l',
  Permutation l l' -> forallb f l = forallb f l'.
Proof.
  intros X f l l' HP. induction HP as [|x l l' HP IH|x y l|l l' l'' HP1 IH1 HP2 IH2]; cbn [forallb].
  - reflexivity.
  - rewrite IH. reflexivity.
  - destruct (f x), (f y); reflexivity.
  - rewrite IH1. exact IH2.
Qed.

Lemma NoDup_app_disjoint : forall {X} (x y : list X) k,
  NoDup (x ++ y) -> In k x -> In k y -> False.
Proof.
  intros X x y k. induction x as [|a x IH]; cbn [app]; intros Hnd Hx Hy; [destruct Hx|].
  apply NoDup_cons_iff in Hnd. destruct Hnd as [Hnotin Hnd']. destruct Hx as [Hx|Hx].
  - subst a. apply Hnotin. apply in_or_app. right. exact Hy.
  - apply (IH Hnd' Hx Hy).
Qed.

Lemma conj_req_In : forall ts k,
  In k (required_keys (TConj ts)) <-> exists t, In t ts /\ In k (required_keys t).
Proof. intros ts k. cbn [required_keys]. rewrite dedup_In. apply in_flat_map. Qed.

Lemma req_common_iff : forall ts,
  forallb (fun t' => set_eqb (required_keys t') (dedup (flat_map required_keys ts))) ts = true <->
  (forall t1 t2, In t1 ts -> In t2 ts ->
     forall k, In k (required_keys t1) <-> In k (required_keys t2)).
Proof.
  intros ts. rewrite forallb_forall. split.
  - intros H t1 t2 H1 H2 k.
    pose proof (H t1 H1) as E1. pose proof (H t2 H2) as E2.
    rewrite set_eqb_spec in E1, E2. rewrite (E1 k), (E2 k). reflexivity.
  - intros H t Ht. apply set_eqb_spec. intros k.
    rewrite dedup_In, in_flat_map. split.
    + intros Hk. exists t. split; assumption.
    + intros [t2 [Ht2 Hk]]. apply (H t t2 Ht Ht2 k). exact Hk.
Qed.

Lemma compose_iff : forall o i,
  wf (TComp o i) = true <->
  (wf o = true /\ wf i = true /\ forall k, In k (required_keys o) <-> In k (output_keys i)).
Proof.
  intros o i.
  change (wf (TComp o i)) with (wf o && wf i && set_eqb (required_keys o) (output_keys i)).
  rewrite !andb_true_iff, set_eqb_spec. tauto.
Qed.

Lemma conj_iff : forall ts,
  wf (TConj ts) = true <->
  (Forall (fun t => wf t = true) ts
   /\ (forall t1 t2, In t1 ts -> In t2 ts -> forall k, In k (required_keys t1) <-> In k (required_keys t2))
   /\ NoDup (flat_map output_keys ts)).
Proof.
  intros ts.
  change (wf (TConj ts)) with
    (forallb wf ts
     && forallb (fun t' => set_eqb (required_keys t') (dedup (flat_map required_keys ts))) ts
     && nodupb (flat_map output_keys ts)).
  rewrite !andb_true_iff, req_common_iff, nodupb_spec, forallb_forall, Forall_forall. tauto.
Qed.

Lemma stack_iff : forall ts,
  wf (TStack ts) = true <->
  (Forall (fun t => wf t = true) ts
   /\ (forall t1 t2, In t1 ts -> In t2 ts -> forall k, In k (required_keys t1) <-> In k (required_keys t2))).
Proof.
  intros ts.
  change (wf (TStack ts)) with
    (forallb wf ts
     && forallb (fun t' => set_eqb (required_keys t') (dedup (flat_map required_keys ts))) ts).
  rewrite !andb_true_iff, req_common_iff, forallb_forall, Forall_forall. tauto.
Qed.

Lemma select_iff : forall keys req, wf (TSelect keys req) = true <-> (forall k, In k keys -> In k req).
Proof. intros keys req. change (wf (TSelect keys req)) with (subsetb keys req). apply subsetb_spec. Qed.

Lemma diag_iff : forall c, wf (TDiag c) = true <-> NoDup c.
Proof. intros c. change (wf (TDiag c)) with (nodupb c). apply nodupb_spec. Qed.

Lemma wf_conj_req : forall ts t,
  wf (TConj ts) = true -> In t ts ->
  forall k, In k (required_keys t) <-> In k (required_keys (TConj ts)).
Proof.
  intros ts t Hwf Ht k. apply conj_iff in Hwf. destruct Hwf as [_ [Hreq _]].
  rewrite conj_req_In. split.
  - intros Hk. exists t. split; assumption.
  - intros [t' [Ht' Hk]]. apply (Hreq t t' Ht Ht'). exact Hk.
Qed.

Lemma conj_wf_intro : forall ts R,
  Forall (fun t => wf t = true) ts ->
  (forall t, In t ts -> forall k, In k (required_keys t) <-> In k R) ->
  NoDup (flat_map output_keys ts) -> wf (TConj ts) = true.
Proof.
  intros ts R HF E Hnd. apply conj_iff. split; [exact HF | split; [|exact Hnd]].
  intros t1 t2 H1 H2 k. exact (iff_trans (E t1 H1 k) (iff_sym (E t2 H2 k))).
Qed.

Lemma conj_perm_req : forall ts ts',
  Permutation ts ts' ->
  forall k, In k (required_keys (TConj ts)) <-> In k (required_keys (TConj ts')).
Proof.
  intros ts ts' HP k. rewrite !conj_req_In. split; intros [t [Ht Hk]]; exists t.
  - split; [exact (Permutation_in _ HP Ht) | exact Hk].
  - split; [exact (Permutation_in _ (Permutation_sym HP) Ht) | exact Hk].
Qed.

Lemma conj_perm_wf : forall ts ts',
  Permutation ts ts' -> wf (TConj ts) = true -> wf (TConj ts') = true.
Proof.
  intros ts ts' HP. rewrite !conj_iff. intros [HF [Hreq Hnd]]. split; [|split].
  - exact (Permutation_Forall HP HF).
  - intros t1 t2 H1 H2. apply Hreq; apply (Permutation_in _ (Permutation_sym HP)); assumption.
  - exact (Permutation_NoDup (Permutation_flat_map output_keys HP) Hnd).
Qed.

Lemma conj_comm_wf : forall a b, wf (TConj [a; b]) = wf (TConj [b; a]).
Proof. intros a b. apply eq_true_iff_eq. split; apply conj_perm_wf, perm_swap. Qed.

Section C14.
Context {T : Type} (N : Num T) (P : prog T) (A : list (list T) -> res (list T)).
Notation run := (run N P A).
Notation run_list := (run_list N P A).
Notation tdictT := (@tdict T).

Lemma run_conj_same_req : forall t ts s d,
  set_eqb (dkeys d) (required_keys t) = true ->
  (forall k, In k (required_keys (TConj ts)) <-> In k (required_keys t)) ->
  run (TConj ts) s d =
  match run_list d ts s with
  | (Err e, s') => (Err e, s')
  | (Ok ds, s') => (union_dicts P ds, s')
  end.
Proof. intros t ts s d K E. rewrite run_conj_eq, (set_eqb_congr_r _ _ _ E), K. reflexivity. Qed.

Definition typed (k0 : dkind) (t : tr) (d' : tdictT) : Prop :=
  (forall k, In k (dkeys d') <-> In k (output_keys t)) /\ dk d' = out_kind t k0.

Lemma dkeys_flat_map : forall ds : list tdictT,
  map fst (flat_map (fun d => ditems d) ds) = flat_map dkeys ds.
Proof.
  induction ds as [|d0 ds IH]; cbn [flat_map map]; [reflexivity|].
  rewrite map_app, IH. reflexivity.
Qed.

(* Grad and Jac build their result in one of three branches (no inputs, no outputs, an engine
   run); in each it has the type of the input and the keys [ins] *)
Lemma grad_typed : forall outs ins retain s d d' s',
  run (TGrad outs ins retain) s d = (Ok d', s') -> dk d' = dk d /\ dkeys d' = ins.
Proof.
  intros outs ins retain s d d' s' H. destruct ins as [|i0 ins'].
  - apply run_grad_noins in H. destruct H as [_ ->]. split; reflexivity.
  - destruct outs as [|o0 outs'].
    + apply run_grad_noouts in H; [|discriminate]. destruct H as [_ ->].
      split; [reflexivity | apply dkeys_items].
    + apply run_grad_inv in H; [|discriminate|discriminate]. destruct H as [_ ->].
      split; [reflexivity | apply dkeys_items].
Qed.

Lemma jac_typed : forall outs ins chunk retain s d d' s',
  run (TJac outs ins chunk retain) s d = (Ok d', s') -> dk d' = dk d /\ dkeys d' = ins.
Proof.
  intros outs ins chunk retain s d d' s' H. destruct ins as [|i0 ins'].
  - apply run_jac_noins in H. destruct H as [_ ->]. split; reflexivity.
  - destruct outs as [|o0 outs'].
    + apply run_jac_noouts in H; [|discriminate]. destruct H as [_ ->].
      split; [reflexivity | apply dkeys_items].
    + apply run_jac_inv in H; [|discriminate|discriminate]. destruct H as (matrix & _ & ->).
      split; [reflexivity | apply keys_indexed].
Qed.

Lemma aggmat_typed : forall ord s d d' s',
  run (TAggMat ord) s d = (Ok d', s') ->
  dk d' = out_kind (TAggMat ord) (dk d) /\ dkeys d' = ord.
Proof.
  intros ord s d d' s' H. apply run_aggmat_inv in H.
  destruct H as [_ [[-> ->]|[Hne [v [_ Hd]]]]]; [split; reflexivity|].
  cbv zeta in Hd. destruct Hd as [_ ->]. split.
  - destruct ord; [contradiction Hne|]; reflexivity.
  - unfold dkeys. cbn [ditems]. rewrite keys_fst. apply map_fst_combine.
    rewrite split_by_length, map_length. reflexivity.
Qed.

Lemma members_typed : forall ts d s ds s',
  Forall (fun t => forall s d d' s', run t s d = (Ok d', s') -> typed (dk d) t d') ts ->
  run_list d ts s = (Ok ds, s') -> Forall2 (typed (dk d)) ts ds.
Proof.
  intros ts d s ds s' IH. apply run_list_Forall2. revert IH. apply Forall_impl.
  intros t Ht s0 d' s1. exact (Ht s0 d d' s1).
Qed.

Lemma typed_flat_keys : forall (k0 : dkind) ts (ds : list tdictT),
  Forall2 (typed k0) ts ds ->
  forall k, In k (flat_map dkeys ds) <-> In k (flat_map output_keys ts).
Proof.
  intros k0 ts ds HF. induction HF as [|t d' ts ds [Hk _] HF IH]; intros k; cbn [flat_map].
  - reflexivity.
  - rewrite !in_app_iff, (Hk k), (IH k). reflexivity.
Qed.

Lemma typed_fold_kind : forall (k0 : dkind) ts (ds : list tdictT),
  Forall2 (typed k0) ts ds ->
  forall acc,
    fold_left (fun a d' => lca a (dk d')) ds acc =
    fold_left (fun a t' => lca a (out_kind t' k0)) ts acc.
Proof.
  intros k0 ts ds HF. induction HF as [|t d' ts ds [_ Hkd] HF IH]; intros acc; cbn [fold_left].
  - reflexivity.
  - rewrite Hkd. apply IH.
Qed.

Lemma stack_typed : forall (k0 : dkind) ts (ds : list tdictT) d',
  Forall2 (typed k0) ts ds -> stack_dicts N P ds = Ok d' -> typed k0 (TStack ts) d'.
Proof.
  intros k0 ts ds d' HF Hd. apply mk_dict_keys in Hd. destruct Hd as [Hk Hd]. split; [|exact Hk].
  intros k. rewrite Hd, keys_of_items. cbn [output_keys]. rewrite !dedup_In.
  apply (typed_flat_keys _ _ _ HF).
Qed.

Lemma union_typed : forall (k0 : dkind) ts (ds : list tdictT) d',
  Forall2 (typed k0) ts ds -> union_dicts P ds = Ok d' -> typed k0 (TConj ts) d'.
Proof.
  intros k0 ts ds d' HF Hd. apply mk_dict_keys in Hd. destruct Hd as [Hk Hd]. split.
  - intros k. rewrite Hd, dkeys_flat_map. cbn [output_keys]. rewrite dedup_In.
    apply (typed_flat_keys _ _ _ HF).
  - rewrite Hk. apply (typed_fold_kind _ _ _ HF).
Qed.

Lemma listed_typed : forall (k0 : dkind) t L (d' : tdictT),
  output_keys t = dedup L -> dk d' = out_kind t k0 /\ dkeys d' = L -> typed k0 t d'.
Proof.
  intros k0 t L d' E [Hk Hd]. split; [|exact Hk].
  intros k. rewrite Hd, E. symmetry. apply dedup_In.
Qed.

Lemma run_typed : forall t s d d' s', run t s d = (Ok d', s') -> typed (dk d) t d'.
Proof.
  induction t as [vals|c|keys req|ts IH|ts IH|o i IHo IHi|keys|outs ins retain
                 |outs ins chunk retain|keys|ord|keys] using tr_ind';
    intros s d d' s' Hrun.
  - apply run_init_inv in Hrun. destruct Hrun as [_ ->]. split; [|reflexivity].
    intros k. rewrite dkeys_items. reflexivity.
  - apply run_diag_inv in Hrun. destruct Hrun as [_ [_ Hd]]. cbv zeta in Hd. subst d'.
    apply (listed_typed _ (TDiag c) c); [reflexivity|]. split; [reflexivity|].
    unfold dkeys. cbn [ditems]. apply keys_indexed.
  - apply run_select_inv in Hrun. destruct Hrun as [_ ->]. split; [|reflexivity].
    intros k. rewrite dkeys_items. reflexivity.
  - apply run_stack_inv in Hrun. destruct Hrun as [ds [Hl Hd]].
    exact (stack_typed _ ts ds d' (members_typed ts d s ds s' IH Hl) Hd).
  - apply run_conj_inv in Hrun. destruct Hrun as [ds [Hl Hd]].
    exact (union_typed _ ts ds d' (members_typed ts d s ds s' IH Hl) Hd).
  - apply run_comp_inv in Hrun. destruct Hrun as [d1 [s1 [Hi Ho]]].
    destruct (IHi s d d1 s1 Hi) as [_ Hk1]. destruct (IHo s1 d1 d' s' Ho) as [Hko Hk2].
    split; [exact Hko|]. cbn [out_kind]. rewrite <- Hk1. exact Hk2.
  - apply run_accumulate_inv in Hrun. destruct Hrun as [_ [-> _]].
    split; [|reflexivity]. intros k. reflexivity.
  - exact (listed_typed _ (TGrad outs ins retain) ins d' eq_refl (grad_typed _ _ _ _ _ _ _ Hrun)).
  - exact (listed_typed _ (TJac outs ins chunk retain) ins d' eq_refl
             (jac_typed _ _ _ _ _ _ _ _ Hrun)).
  - pose proof (run_keys_ok N P A _ _ _ _ _ Hrun) as Hkeys.
    apply run_matrixify_inv in Hrun. destruct Hrun as [_ ->]. split; [|reflexivity].
    intros k. unfold dkeys. cbn [ditems]. rewrite keys_fst.
    apply (proj1 (set_eqb_spec _ _) Hkeys).
  - exact (listed_typed _ (TAggMat ord) ord d' eq_refl (aggmat_typed _ _ _ _ _ Hrun)).
  - pose proof (run_keys_ok N P A _ _ _ _ _ Hrun) as Hkeys.
    apply run_reshape_inv in Hrun. destruct Hrun as [_ ->]. split; [|reflexivity].
    intros k. unfold dkeys. cbn [ditems]. rewrite keys_fst.
    apply (proj1 (set_eqb_spec _ _) Hkeys).
Qed.

Lemma output_typed : forall t s d d' s',
  wf t = true -> run t s d = (Ok d', s') ->
  (forall k, In k (dkeys d') <-> In k (output_keys t)) /\ dk d' = out_kind t (dk d).
Proof. intros t s d d' s' _. apply run_typed. Qed.

Lemma comp_assoc_wf : forall a b c, wf (TComp (TComp a b) c) = wf (TComp a (TComp b c)).
Proof.
  intros a b c. apply eq_true_iff_eq. rewrite !compose_iff.
  change (required_keys (TComp a b)) with (required_keys b).
  change (output_keys (TComp b c)) with (output_keys b). tauto.
Qed.

(* both run c, then b, then a; the left grouping tests the keys of b before b tests them itself *)
Lemma comp_assoc_run : forall a b c s d,
  run (TComp (TComp a b) c) s d = run (TComp a (TComp b c)) s d.
Proof.
  intros a b c s d.
  rewrite (run_comp_eq N P A (TComp a b) c), (run_comp_eq N P A a (TComp b c)), (run_comp_eq N P A b c).
  change (required_keys (TComp b c)) with (required_keys c).
  destruct (negb (set_eqb (dkeys d) (required_keys c))); [reflexivity|].
  destruct (run c s d) as [[d1|e] s1]; [|reflexivity].
  rewrite (run_comp_eq N P A a b).
  destruct (set_eqb (dkeys d1) (required_keys b)) eqn:Hb; cbn [negb]; [reflexivity|].
  rewrite (run_key_fail N P A b s1 d1 Hb). reflexivity.
Qed.

Lemma comp_assoc_keys : forall a b c,
  required_keys (TComp (TComp a b) c) = required_keys (TComp a (TComp b c)) /\
  output_keys (TComp (TComp a b) c) = output_keys (TComp a (TComp b c)).
Proof. intros a b c. split; reflexivity. Qed.

(* nothing in [t] writes to the store: no Accumulate, and no Grad or Jac, whose engine runs are
   logged and free saved tensors *)
Fixpoint pure (t : tr) : bool :=
  match t with
  | TInit _ | TDiag _ | TSelect _ _ | TMatrixify _ | TAggMat _ | TReshape _ => true
  | TStack ts | TConj ts => forallb pure ts
  | TComp o i => pure o && pure i
  | TAccumulate _ | TGrad _ _ _ | TJac _ _ _ _ => false
  end.
Definition dict_equiv (d d' : @tdict T) : Prop := dk d = dk d' /\ forall k, dget d k = dget d' k.

Lemma dict_equiv_refl : forall d, dict_equiv d d.
Proof. intros d. split; reflexivity. Qed.

Lemma pure_run_list : forall d ts,
  Forall (fun t => pure t = true -> forall s1 s2 d, run t s1 d = (fst (run t s2 d), s1)) ts ->
  forallb pure ts = true ->
  forall s1 s2, run_list d ts s1 = (fst (run_list d ts s2), s1).
Proof.
  intros d ts HF. induction HF as [|t ts Ht HF IH]; intros Hp s1 s2; [reflexivity|].
  cbn [forallb] in Hp. apply andb_true_iff in Hp. destruct Hp as [Hpt Hpts].
  rewrite !run_list_cons, (Ht Hpt s1 s2 d).
  destruct (run t s2 d) as [[d1|e] s2']; cbn [fst]; [|reflexivity].
  rewrite (IH Hpts s1 s2').
  destruct (run_list d ts s2') as [[ds|e] s2'']; reflexivity.
Qed.

Lemma pure_run : forall t,
  pure t = true -> forall s1 s2 d, run t s1 d = (fst (run t s2 d), s1).
Proof.
  induction t as [vals|c|keys req|ts IH|ts IH|o i IHo IHi|keys|outs ins retain
                 |outs ins chunk retain|keys|ord|keys] using tr_ind';
    intros Hp s1 s2 d; try discriminate Hp;
    rewrite !(run_eq N P A); (destruct (negb _); [reflexivity|]); cbn [run_body];
    try reflexivity.
  - rewrite (pure_run_list d ts IH Hp s1 s2).
    destruct (run_list d ts s2) as [[ds|e] s2']; reflexivity.
  - rewrite (pure_run_list d ts IH Hp s1 s2).
    destruct (run_list d ts s2) as [[ds|e] s2']; reflexivity.
  - cbn [pure] in Hp. apply andb_true_iff in Hp. destruct Hp as [Hpo Hpi].
    rewrite (IHi Hpi s1 s2 d).
    destruct (run i s2 d) as [[d1|e] s2']; cbn [fst]; [|reflexivity].
    apply (IHo Hpo).
Qed.

Lemma pure_store : forall t s d r s', pure t = true -> run t s d = (r, s') -> s' = s.
Proof.
  intros t s d r s' Hp Hrun. rewrite (pure_run t Hp s s d) in Hrun.
  injection Hrun as _ Hs. symmetry. exact Hs.
Qed.

Lemma pure_indep : forall t s1 s2 d, pure t = true -> fst (run t s1 d) = fst (run t s2 d).
Proof. intros t s1 s2 d Hp. rewrite (pure_run t Hp s1 s2 d). reflexivity. Qed.

Lemma all_same_perm : forall l l', Permutation l l' -> all_same l = all_same l'.
Proof.
  intros l l' HP. induction HP as [|x l l' HP IH|x y l|l l' l'' HP1 IH1 HP2 IH2].
  - reflexivity.
  - cbn [all_same]. apply forallb_perm. exact HP.
  - cbn [all_same forallb]. destruct (Nat.eqb y x) eqn:E.
    + apply Nat.eqb_eq in E. subst y. rewrite Nat.eqb_refl. reflexivity.
    + rewrite Nat.eqb_sym, E. reflexivity.
  - rewrite IH1. exact IH2.
Qed.

Lemma is_nil_perm : forall {X} (l l' : list X),
  Permutation l l' ->
  match l with [] => true | _ => false end = match l' with [] => true | _ => false end.
Proof.
  intros X l l' HP. destruct l as [|x l]; destruct l' as [|y l']; try reflexivity.
  - apply Permutation_nil in HP. discriminate HP.
  - apply Permutation_sym, Permutation_nil in HP. discriminate HP.
Qed.

Lemma shapes_ok_perm : forall k l l', Permutation l l' -> shapes_ok k l = shapes_ok k l'.
Proof.
  intros k l l' HP. unfold shapes_ok. f_equal.
  - pose proof (Permutation_map snd HP) as HPs.
    unfold check_dict. destruct k; try reflexivity.
    + apply is_nil_perm. exact HPs.
    + f_equal; [apply forallb_perm; exact HPs|].
      apply all_same_perm. apply Permutation_map. exact HPs.
    + f_equal; [apply forallb_perm; exact HPs|].
      apply all_same_perm. apply Permutation_map. exact HPs.
  - apply forallb_perm. exact HP.
Qed.

Lemma union_dicts_2 : forall x y : tdictT,
  union_dicts P [x; y] = mk_dict P (lca (dk x) (dk y)) (ditems x ++ ditems y).
Proof. intros x y. unfold union_dicts. cbn [fold_left flat_map]. rewrite app_nil_r. reflexivity. Qed.

Lemma union_dicts_swap : forall (x y dxy : tdictT),
  (forall k, In k (dkeys x) -> In k (dkeys y) -> False) ->
  union_dicts P [x; y] = Ok dxy ->
  exists dyx, union_dicts P [y; x] = Ok dyx /\ dict_equiv dxy dyx.
Proof.
  intros x y dxy Hdisj. rewrite !union_dicts_2, (lca_comm (dk y)). unfold mk_dict.
  rewrite (shapes_ok_perm _ _ _
             (Permutation_map (fun kv => (p_shape P (fst kv), full_shape (snd kv)))
                (Permutation_app_comm (ditems y) (ditems x)))).
  destruct (shapes_ok _ _); [|discriminate].
  intros H. injection H as <-. eexists. split; [reflexivity|]. split; [reflexivity|].
  intros k. unfold dget. cbn [ditems]. rewrite !assoc_app.
  destruct (assoc k (ditems x)) as [v1|] eqn:E1; destruct (assoc k (ditems y)) as [v2|] eqn:E2;
    try reflexivity.
  exfalso. apply (Hdisj k); apply assoc_in_keys; [exists v1; exact E1 | exists v2; exact E2].
Qed.

Lemma conj_comm : forall a b s d da s',
  pure a = true -> pure b = true -> wf (TConj [a; b]) = true ->
  run (TConj [a; b]) s d = (Ok da, s') ->
  exists db, run (TConj [b; a]) s d = (Ok db, s') /\ dict_equiv da db.
Proof.
  intros a b s d da s' Hpa Hpb Hwf Hrun.
  pose proof (run_keys_ok N P A _ _ _ _ _ Hrun) as Hkeys.
  apply run_conj_inv in Hrun. destruct Hrun as [ds [Hl Hu]].
  apply run_list_ok_cons in Hl. destruct Hl as (d1 & s1 & ds1 & Ha & Hl & ->).
  apply run_list_ok_cons in Hl. destruct Hl as (d2 & s2 & ds2 & Hb & Hl & ->).
  rewrite run_list_nil in Hl. injection Hl as <- <-.
  pose proof (pure_store a s d _ s1 Hpa Ha) as Hs1. subst s1.
  pose proof (pure_store b s d _ s2 Hpb Hb) as Hs2. subst s2.
  apply conj_iff in Hwf. destruct Hwf as [_ [_ Hnd]].
  destruct (run_typed a s d d1 s Ha) as [Hk1 _]. destruct (run_typed b s d d2 s Hb) as [Hk2 _].
  cbn [flat_map] in Hnd. rewrite app_nil_r in Hnd.
  destruct (union_dicts_swap d1 d2 da) as [db [Hu' He]]; [|exact Hu|].
  { intros k H1 H2. apply (NoDup_app_disjoint _ _ k Hnd); [apply Hk1, H1 | apply Hk2, H2]. }
  exists db. split; [|exact He].
  rewrite (run_conj_same_req (TConj [a; b]) [b; a] s d Hkeys (conj_perm_req _ _ (perm_swap a b []))).
  rewrite run_list_cons, Hb, run_list_cons, Ha, run_list_nil, Hu'. reflexivity.
Qed.

End C14.

Print Assumptions output_typed.
Print Assumptions comp_assoc_run.
Print Assumptions conj_iff.
Print Assumptions compose_iff.
Print Assumptions conj_comm.
Print Assumptions pure_store.
