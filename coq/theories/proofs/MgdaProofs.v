(* MGDA (Frank-Wolfe on the Gramian): the quadratic form never increases, the output is never longer
   than the mean row, and the conflict with any row is bounded by the sub-optimality gap (allowance
   clause of C04), the gap being measured against [hull_min], a minimum-norm point of the hull of
   the rows.  Also the quadratic [qseg] that a dot product or a quadratic form induces on a segment,
   shared by the files on the simplex and on quadratics. *)
From Coq Require Import Reals List Lia Lra.
From TJ Require Import Num Linalg NumR Agg.
From TJ.proofs Require Import LinalgR QPProofs C18Proofs.
Import ListNotations.
Local Open Scope R_scope.

(* With b = q(u), c = q(w) and a the mixed term, [qseg b a c t] is the value of the quadratic
   form q at (1-t) u + t w. *)
Definition qseg (b a c t : R) : R :=
  (1 - t) * (1 - t) * b + 2 * (t * (1 - t)) * a + t * t * c.

Lemma qseg_0 b a c : qseg b a c 0 = b.
Proof. unfold qseg. ring. Qed.

Lemma qseg_swap b a c t : qseg b a c t = qseg c a b (1 - t).
Proof. unfold qseg. ring. Qed.

Lemma qseg_slope b a c t :
  qseg b a c t = b - 2 * t * (b - a) + t * t * (b + c - 2 * a).
Proof. unfold qseg. ring. Qed.

(* completing the square around g; the last term vanishes at the stationary point *)
Lemma qseg_square b a c g t :
  qseg b a c t - qseg b a c g =
  (b + c - 2 * a) * ((t - g) * (t - g)) + 2 * (t - g) * (g * (b + c - 2 * a) - (b - a)).
Proof. unfold qseg. ring. Qed.

(* fw_gamma is the exact line search from u (value b) towards w (value c), clipped to [0,1];
   a <= b says that w is a descent direction *)
Lemma fw_gamma_opt a b c t : a <= b -> 0 <= t <= 1 ->
  qseg b a c (fw_gamma a b c) <= qseg b a c t.
Proof.
  intros Hab Ht. unfold fw_gamma. destruct (Rleb c a) eqn:E1.
  - apply Rleb_true in E1.
    pose proof (Rmult_le_pos _ (b - c) (Rle_0_sqr (1 - t)) ltac:(lra)) as P1.
    pose proof (Rmult_le_pos _ (a - c) (Rmult_le_pos t (1 - t) ltac:(lra) ltac:(lra)) ltac:(lra))
      as P2.
    unfold qseg, Rsqr in *. lra.
  - apply Rleb_false in E1. destruct (Rleb b a) eqn:E2.
    + apply Rleb_true in E2.
      pose proof (Rmult_le_pos _ (c - b) (Rle_0_sqr t) ltac:(lra)) as P1.
      rewrite qseg_0, qseg_slope. unfold Rsqr in P1. replace a with b in * by lra. lra.
    + apply Rleb_false in E2.
      set (D := b + c - 2 * a). assert (HD : 0 < D) by (unfold D; lra).
      set (g := (b - a) / D).
      assert (HgD : g * D = b - a) by (unfold g; field; lra).
      pose proof (qseg_square b a c g t) as K. fold D in K. rewrite HgD in K.
      pose proof (Rmult_le_pos D _ (Rlt_le _ _ HD) (Rle_0_sqr (t - g))) as P. unfold Rsqr in P.
      lra.
Qed.

Lemma qseg_min_at_0 p q r : (forall t, 0 <= t <= 1 -> p <= qseg p q r t) -> p <= q.
Proof.
  intros H. assert (H0 : 0 <= q - p); [|lra].
  apply (first_order_real (q - p) (p + r - 2 * q)). intros t Ht.
  specialize (H t ltac:(lra)). rewrite qseg_slope in H. lra.
Qed.

Lemma dot_segment t x y : length x = length y ->
  dotR (vaddR (vscaleR (1 - t) x) (vscaleR t y)) (vaddR (vscaleR (1 - t) x) (vscaleR t y)) =
  qseg (dotR x x) (dotR x y) (dotR y y) t.
Proof. intros H. rewrite dot_lincomb by exact H. unfold qseg. ring. Qed.

Lemma qf_segment m M t u w : symm m M -> length u = m -> length w = m ->
  qf M (vaddR (vscaleR (1 - t) u) (vscaleR t w)) = qseg (qf M u) (bil M u w) (qf M w) t.
Proof. intros Hs Hu Hw. rewrite (qf_lincomb m) by assumption. unfold qseg. ring. Qed.

(* The step moves towards the vertex e_i that minimises the linear functional <., G alpha> on
   the simplex, and lands on a point of the segment [alpha, e_i] where the quadratic is smallest. *)
Lemma mgda_step_spec n J alpha : wfmat n J -> simplex (length J) alpha ->
  exists i, (i < length J)%nat /\
    (forall w, simplex (length J) w ->
       bil (gramR J) (onehotR (length J) i 1) alpha <= bil (gramR J) w alpha) /\
    forall t, 0 <= t <= 1 ->
      qf (gramR J) (fst (mgda_step RN (gramR J) alpha)) <=
      qseg (qf (gramR J) alpha) (bil (gramR J) alpha (onehotR (length J) i 1))
           (qf (gramR J) (onehotR (length J) i 1)) t.
Proof.
  intros HJ Hsx. pose proof (simplex_nonempty _ _ Hsx) as Hm. pose proof (proj1 Hsx) as Hl.
  set (G := gramR J). set (m := length J) in *.
  assert (HG : length G = m) by apply length_gram.
  assert (HlGa : length (mvR G alpha) = m) by (rewrite length_mv; exact HG).
  set (i := argmin RN (mvR G alpha)).
  assert (Hi : (i < m)%nat).
  { unfold i. rewrite <- HlGa. apply argmin_lt. intros E. rewrite E in HlGa. cbn in HlGa. lia. }
  set (e := onehotR m i 1).
  assert (Hlmo : forall w, simplex m w -> bil G e alpha <= bil G w alpha).
  { intros w Hw. unfold e. rewrite (bil_onehot_l m) by assumption.
    apply (simplex_dot_ge_min m); assumption. }
  exists i. split; [exact Hi|]. split; [exact Hlmo|]. intros t Ht.
  rewrite mgda_step_eq. cbv zeta. cbn [fst]. rewrite Hl. fold i. fold e.
  assert (Hsym : symm m G) by (apply (symm_gram n); exact HJ).
  rewrite (qf_segment m) by (try assumption; apply length_onehot).
  apply fw_gamma_opt; [|exact Ht].
  rewrite (Hsym alpha e Hl (length_onehot _ _ _)). apply (Hlmo alpha Hsx).
Qed.

Theorem mgda_step_decreases n J alpha : wfmat n J -> simplex (length J) alpha ->
  quadform RN (gramR J) (fst (mgda_step RN (gramR J) alpha)) <= quadform RN (gramR J) alpha.
Proof.
  intros HJ Hsx. destruct (mgda_step_spec n J alpha HJ Hsx) as (i & _ & _ & Hopt).
  specialize (Hopt 0 ltac:(lra)). rewrite qseg_0 in Hopt. exact Hopt.
Qed.

Theorem mgda_loop_decreases n J eps iters : wfmat n J -> forall alpha,
  simplex (length J) alpha ->
  quadform RN (gramR J) (mgda_loop RN iters (gramR J) eps alpha) <= quadform RN (gramR J) alpha.
Proof.
  intros HJ alpha Ha. eapply proj2.
  (* the steps keep the iterate in the simplex, where each of them decreases q *)
  apply (mgda_loop_ind (fun a => simplex (length J) a /\
           quadform RN (gramR J) a <= quadform RN (gramR J) alpha) (gramR J) eps);
    [|split; [exact Ha | apply Rle_refl]].
  intros a [Hs Hq]. split.
  - apply mgda_step_simplex; [exact (simplex_nonempty _ _ Hs) | apply length_gram | exact Hs].
  - apply Rle_trans with (2 := Hq). apply (mgda_step_decreases n); assumption.
Qed.

Theorem mgda_not_longer_than_mean n J eps iters : wfmat n J ->
  dotR (agg_mgda RN eps iters J) (agg_mgda RN eps iters J) <=
  dotR (agg_mean RN J) (agg_mean RN J).
Proof.
  intros HJ. unfold agg_mgda, agg_mean, mgda_weights. rewrite length_gram.
  destruct J as [|r J'].
  - unfold combine_rows. rewrite !vm_nil. apply Rle_refl.
  - set (J := r :: J') in *.
    assert (Hne : J <> []) by (unfold J; congruence).
    assert (Hm : (1 <= length J)%nat) by (unfold J; cbn [length]; lia).
    pose proof (simplex_mean (length J) Hm) as Hmean.
    pose proof (mgda_loop_simplex (length J) (gramR J) eps iters _ Hm (length_gram J) Hmean)
      as Hloop.
    rewrite !(combine_wf n) by assumption.
    rewrite <- !(qf_gram n) by first [exact HJ | exact (proj1 Hloop) | exact (proj1 Hmean)].
    apply (mgda_loop_decreases n J eps iters HJ _ Hmean).
Qed.

Definition hull_min (n : nat) (J : list (list R)) (wstar : list R) : Prop :=
  simplex (length J) wstar /\
  forall w, simplex (length J) w ->
    dotR (vmR n wstar J) (vmR n wstar J) <= dotR (vmR n w J) (vmR n w J).

Lemma hull_min_qf n J wstar : wfmat n J ->
  hull_min n J wstar <->
  simplex (length J) wstar /\
  forall w, simplex (length J) w -> qf (gramR J) wstar <= qf (gramR J) w.
Proof.
  intros HJ. unfold hull_min.
  assert (E : forall w, simplex (length J) w ->
            qf (gramR J) w = dotR (vmR n w J) (vmR n w J)).
  { intros w Hw. apply (qf_gram n); [exact HJ | exact (proj1 Hw)]. }
  split; intros [Hst Hmin]; (split; [exact Hst|]); intros w Hw.
  - rewrite (E _ Hst), (E _ Hw). exact (Hmin w Hw).
  - rewrite <- (E _ Hst), <- (E _ Hw). exact (Hmin w Hw).
Qed.

Lemma hull_variational n J wstar w : wfmat n J -> hull_min n J wstar -> simplex (length J) w ->
  dotR (vmR n wstar J) (vmR n wstar J) <= dotR (vmR n wstar J) (vmR n w J).
Proof.
  intros HJ [Hst Hmin] Hw.
  apply (qseg_min_at_0 _ _ (dotR (vmR n w J) (vmR n w J))). intros t Ht.
  pose proof (Hmin _ (simplex_convex _ t wstar w Ht Hst Hw)) as Hm.
  rewrite vm_lincomb in Hm by (rewrite (proj1 Hw); exact (proj1 Hst)).
  rewrite dot_segment in Hm by (rewrite !(length_vm n) by exact HJ; reflexivity).
  exact Hm.
Qed.

(* at a vertex: the minimum-norm point itself conflicts with no row *)
Corollary hull_min_nonconflicting n J wstar i : wfmat n J -> hull_min n J wstar ->
  (i < length J)%nat ->
  dotR (vmR n wstar J) (vmR n wstar J) <= dotR (nth i J []) (vmR n wstar J).
Proof.
  intros HJ Hmin Hi. rewrite (dot_comm (nth i J [])). rewrite <- (vm_onehot n J HJ i Hi).
  apply hull_variational; [exact HJ | exact Hmin | apply simplex_onehot; exact Hi].
Qed.

(* the minimum-norm point of the hull is unique (as a vector) *)
Lemma hull_min_unique n J a b : wfmat n J -> hull_min n J a -> hull_min n J b ->
  vmR n a J = vmR n b J.
Proof.
  intros HJ Ha Hb.
  pose proof (hull_variational n J a b HJ Ha (proj1 Hb)) as H1.
  pose proof (hull_variational n J b a HJ Hb (proj1 Ha)) as H2.
  set (x := vmR n a J) in *. set (y := vmR n b J) in *.
  assert (Hl : length x = length y) by (unfold x, y; rewrite !(length_vm n) by exact HJ; reflexivity).
  apply vsub_norm_zero_eq; [exact Hl|].
  pose proof (dot_self_nonneg (vsubR x y)) as Hp.
  rewrite dot_vsub_self in * by exact Hl. rewrite (dot_comm y x) in H2. lra.
Qed.

Lemma hull_min_loop n J eps iters alpha : wfmat n J -> hull_min n J alpha ->
  hull_min n J (mgda_loop RN iters (gramR J) eps alpha).
Proof.
  intros HJ Hmin. apply (hull_min_qf n J _ HJ). apply (hull_min_qf n J _ HJ) in Hmin.
  destruct Hmin as [Hsx Hmin].
  pose proof (simplex_nonempty _ _ Hsx) as Hm.
  split; [exact (mgda_loop_simplex _ _ eps iters alpha Hm (length_gram J) Hsx)|]. intros w Hw.
  apply Rle_trans with (2 := Hmin w Hw).
  apply (mgda_loop_decreases n J eps iters HJ alpha Hsx).
Qed.

(* once the first step from the mean reaches a minimum-norm point, every budget >= 1 returns one *)
Lemma mgda_weights_hull_min n J eps iters : wfmat n J -> (1 <= iters)%nat ->
  hull_min n J (fst (mgda_step RN (gramR J) (mean_weights RN (length J)))) ->
  hull_min n J (mgda_weights RN (gramR J) eps iters).
Proof.
  intros HJ Hit Hstep. destruct iters as [|k]; [lia|]. unfold mgda_weights. rewrite length_gram.
  cbn [mgda_loop].
  destruct (mgda_step RN (gramR J) (mean_weights RN (length J))) as [alpha' gamma].
  cbn [fst] in Hstep. destruct (nltb RN gamma eps); [exact Hstep|].
  apply hull_min_loop; assumption.
Qed.

(* any point x = alpha . J of the hull: <g_i, x> >= - s * sqrt(|x|^2 - |x*|^2) *)
Theorem hull_allowance n J alpha wstar s i : wfmat n J ->
  simplex (length J) alpha -> hull_min n J wstar ->
  0 <= s -> (forall g, In g J -> dotR g g <= s * s) -> (i < length J)%nat ->
  let x := vmR n alpha J in
  let xstar := vmR n wstar J in
  - s * sqrt (dotR x x - dotR xstar xstar) <= dotR (nth i J []) x.
Proof.
  intros HJ Ha Hmin Hs Hbound Hi x xs.
  set (g := nth i J []).
  assert (Hin : In g J) by (apply nth_In; exact Hi).
  assert (Hlg : length g = n) by exact (proj1 (Forall_forall _ _) HJ g Hin).
  assert (Hlx : length x = n) by (apply length_vm; exact HJ).
  assert (Hlxs : length xs = n) by (apply length_vm; exact HJ).
  pose proof (hull_variational n J wstar alpha HJ Hmin Ha) as H1.
  pose proof (hull_min_nonconflicting n J wstar i HJ Hmin Hi) as H2.
  fold x in H1. fold xs in H1, H2. fold g in H2.
  (* Cauchy-Schwarz for g and z = x - xs, where |z|^2 <= |x|^2 - |xs|^2 by H1 *)
  pose proof (dot_lower_cs g (vsubR x xs) s (dotR x x - dotR xs xs)
                ltac:(rewrite length_vsub; congruence) Hs (Hbound g Hin)) as Hcs.
  rewrite dot_vsub_self, dot_vsub_r in Hcs by congruence. rewrite (dot_comm x xs) in Hcs.
  specialize (Hcs ltac:(lra)). pose proof (dot_self_nonneg xs) as Hp. lra.
Qed.

(* C04's clause for MGDA *)
Theorem mgda_allowance n J eps iters wstar s i : wfmat n J -> hull_min n J wstar ->
  0 <= s -> (forall g, In g J -> dotR g g <= s * s) -> (i < length J)%nat ->
  let x := agg_mgda RN eps iters J in
  let xstar := vmR n wstar J in
  - s * sqrt (dotR x x - dotR xstar xstar) <= dotR (nth i J []) x.
Proof.
  intros HJ Hmin Hs Hbound Hi. cbv zeta.
  assert (Hne : J <> []) by (intros E; rewrite E in Hi; cbn in Hi; lia).
  unfold agg_mgda. rewrite (combine_wf n) by assumption.
  pose proof (mgda_weights_simplex (gramR J) eps iters) as Hsx. rewrite length_gram in Hsx.
  apply (hull_allowance n J _ wstar s i); try assumption. apply Hsx. lia.
Qed.

(* the same, in the form used by C04 for the other aggregators: entry i of J . A(J) *)
Corollary mgda_allowance_mv n J eps iters wstar s i : wfmat n J -> hull_min n J wstar ->
  0 <= s -> (forall g, In g J -> dotR g g <= s * s) -> (i < length J)%nat ->
  let x := agg_mgda RN eps iters J in
  let xstar := vmR n wstar J in
  - s * sqrt (dotR x x - dotR xstar xstar) <= nth i (mvR J x) 0.
Proof.
  intros HJ Hmin Hs Hbound Hi. cbv zeta. rewrite nth_mv by exact Hi.
  apply (mgda_allowance n J eps iters wstar s i); assumption.
Qed.

Print Assumptions mgda_step_decreases.
Print Assumptions mgda_loop_decreases.
Print Assumptions mgda_not_longer_than_mean.
Print Assumptions hull_variational.
Print Assumptions hull_allowance.
Print Assumptions mgda_allowance.
Print Assumptions mgda_allowance_mv.
Print Assumptions hull_min_nonconflicting.
Print Assumptions hull_min_unique.
