(* The quadratic program of UPGrad / DualProj has a (unique) minimiser.
   (A) a function on a box that is Lipschitz for the l1 distance attains its minimum
       (induction on the dimension through [fibre_min]; the only compactness used is the
       one-dimensional [continuity_ab_min]; the value function of the inner minimisation is
       DEFINED as an infimum through [completeness], so no choice axiom is needed);
   (B) a symmetric coercive quadratic form attains its minimum on { v >= u };
   (C) the instance M = reg_norm_gramian (gram J) s ne re with re > 0. *)
From Coq Require Import Reals List Lra.
From TJ Require Import Num Linalg NumR Agg.
From TJ.proofs Require Import LinalgR QPProofs.
Import ListNotations.
Local Open Scope R_scope.

(* The infimum of F over P as a real number obtained without choice: minus the [completeness]
   supremum of { - F v : P v }.  It is only ever used where the minimum is attained. *)
Section Inf.
Context {A : Type} (P : A -> Prop) (F : A -> R).
Definition min_at (w : A) : Prop := P w /\ forall v, P v -> F w <= F v.
Definition has_min : Prop := exists w, min_at w.
Definition negvalsP (x : R) : Prop := exists v, P v /\ x = - F v.

Lemma negvalsP_bound : has_min -> bound negvalsP.
Proof.
  intros (w & Hw & Hmin). exists (- F w). intros x (v & Hv & ->). specialize (Hmin v Hv). lra.
Qed.

Lemma negvalsP_ex : has_min -> exists x, negvalsP x.
Proof. intros (w & Hw & _). exists (- F w), w. split; [exact Hw | reflexivity]. Qed.

Definition infP (H : has_min) : R :=
  - proj1_sig (completeness negvalsP (negvalsP_bound H) (negvalsP_ex H)).

Lemma infP_le (H : has_min) (v : A) : P v -> infP H <= F v.
Proof.
  intros Hv. unfold infP.
  destruct (completeness negvalsP (negvalsP_bound H) (negvalsP_ex H)) as [l [Hub Hlub]].
  cbn [proj1_sig]. specialize (Hub (- F v)). lapply Hub; [lra|].
  exists v. split; [exact Hv | reflexivity].
Qed.

Lemma infP_attained (H : has_min) (w : A) : min_at w -> infP H = F w.
Proof.
  intros [Hw Hmin]. apply Rle_antisym; [apply infP_le; exact Hw|].
  unfold infP.
  destruct (completeness negvalsP (negvalsP_bound H) (negvalsP_ex H)) as [l [Hub Hlub]].
  cbn [proj1_sig]. specialize (Hlub (- F w)). lapply Hlub; [lra|].
  intros x (v & Hv & ->). specialize (Hmin v Hv). lra.
Qed.
End Inf.

Lemma lip_continuity (phi : R -> R) L c : 0 <= L ->
  (forall t s, phi t - phi s <= L * Rabs (t - s)) -> continuity_pt phi c.
Proof.
  intros HL Hlip eps Heps.
  assert (HL1 : 0 < L + 1) by lra.
  exists (eps * / (L + 1)). split; [apply Rmult_lt_0_compat; [exact Heps | apply Rinv_0_lt_compat, HL1]|].
  intros x [_ Hd]. cbn [dist R_met Base] in *. unfold R_dist in *.
  apply (Rmult_lt_compat_l (L + 1) _ _ HL1) in Hd.
  rewrite <- Rmult_assoc, Rinv_r_simpl_m in Hd by lra.
  pose proof (Hlip x c) as H1. pose proof (Hlip c x) as H2. rewrite (Rabs_minus_sym c x) in H2.
  pose proof (Rabs_pos (x - c)). apply Rabs_def1; lra.
Qed.

Definition clamp (a b t : R) : R := Rmax a (Rmin b t).

Lemma clamp_in a b t : a <= b -> a <= clamp a b t <= b.
Proof.
  intros Hab. split; [apply Rmax_l | apply Rmax_lub; [exact Hab | apply Rmin_l]].
Qed.

Lemma clamp_id a b t : a <= t <= b -> clamp a b t = t.
Proof.
  intros [Ha Hb]. unfold clamp. rewrite (Rmin_right b t Hb). apply Rmax_right, Ha.
Qed.

(* min and max with a constant are monotone and 1-Lipschitz, hence so is their composition *)
Lemma Rmin_mono_lip b s t : s <= t -> 0 <= Rmin b t - Rmin b s <= t - s.
Proof. intros H. unfold Rmin. destruct (Rle_dec b t), (Rle_dec b s); lra. Qed.

Lemma Rmax_mono_lip a s t : s <= t -> 0 <= Rmax a t - Rmax a s <= t - s.
Proof. intros H. unfold Rmax. destruct (Rle_dec a t), (Rle_dec a s); lra. Qed.

Lemma clamp_mono_lip a b s t : s <= t -> 0 <= clamp a b t - clamp a b s <= t - s.
Proof.
  intros Hst. pose proof (Rmin_mono_lip b s t Hst) as H.
  pose proof (Rmax_mono_lip a (Rmin b s) (Rmin b t) ltac:(lra)). unfold clamp. lra.
Qed.

Lemma clamp_lip a b t s : Rabs (clamp a b t - clamp a b s) <= Rabs (t - s).
Proof.
  destruct (Rle_dec s t) as [H|H].
  - pose proof (clamp_mono_lip a b s t H). rewrite !Rabs_pos_eq; lra.
  - apply Rnot_le_lt, Rlt_le in H. pose proof (clamp_mono_lip a b t s H).
    rewrite (Rabs_minus_sym t s), (Rabs_minus_sym (clamp a b t)), !Rabs_pos_eq; lra.
Qed.

(* If every fibre F t attains its minimum over P and F is Lipschitz in t uniformly over P, then
   the value function t |-> min_P (F t) is Lipschitz, so it attains its minimum on [a,b]
   ([continuity_ab_min]), and a minimiser of that fibre minimises F over [a,b] x P.  The value
   function is the infimum [infP] of the fibre, extended to all of R by clamping t. *)
Lemma fibre_min {A : Type} (P : A -> Prop) (F : R -> A -> R) a b L : a <= b -> 0 <= L ->
  (forall t, a <= t <= b -> has_min P (F t)) ->
  (forall t s v, a <= t <= b -> a <= s <= b -> P v -> F t v - F s v <= L * Rabs (t - s)) ->
  exists ts ws, a <= ts <= b /\ P ws /\ forall t v, a <= t <= b -> P v -> F ts ws <= F t v.
Proof.
  intros Hab HL Hmin Hlip.
  assert (HG : forall t, has_min P (F (clamp a b t))) by (intros t; apply Hmin, clamp_in, Hab).
  set (phi := fun t => infP P (F (clamp a b t)) (HG t)).
  assert (Hphi : forall t s, phi t - phi s <= L * Rabs (t - s)).
  { intros t s. destruct (HG s) as (ws & Hws). unfold phi.
    rewrite (infP_attained P _ (HG s) ws Hws).
    pose proof (infP_le P _ (HG t) ws (proj1 Hws)) as Hle.
    pose proof (Hlip _ _ ws (clamp_in a b t Hab) (clamp_in a b s Hab) (proj1 Hws)) as H.
    pose proof (Rmult_le_compat_l L _ _ HL (clamp_lip a b t s)). lra. }
  destruct (continuity_ab_min phi a b Hab) as (ts & Hts & Htsab).
  { intros c _. apply (lip_continuity phi L c HL Hphi). }
  destruct (HG ts) as (ws & Hws). exists ts, ws. split; [exact Htsab|]. split; [exact (proj1 Hws)|].
  intros t v Ht Hv. rewrite <- (clamp_id a b ts Htsab), <- (clamp_id a b t Ht).
  rewrite <- (infP_attained P _ (HG ts) ws Hws).
  apply Rle_trans with (phi t); [apply Hts, Ht | apply infP_le, Hv].
Qed.

Definition inbox (lo hi v : list R) : Prop := Forall2 Rle lo v /\ Forall2 Rle v hi.
Definition l1 (v : list R) : R := vsumR (map Rabs v).

Lemma l1_nil : l1 [] = 0.
Proof. reflexivity. Qed.
Lemma l1_cons x v : l1 (x :: v) = Rabs x + l1 v.
Proof. reflexivity. Qed.
Lemma l1_nonneg v : 0 <= l1 v.
Proof.
  induction v as [|x v IH]; [rewrite l1_nil; lra|]. rewrite l1_cons. pose proof (Rabs_pos x). lra.
Qed.

Lemma l1_vsub_cons x a y b : l1 (vsubR (x :: a) (y :: b)) = Rabs (x - y) + l1 (vsubR a b).
Proof. reflexivity. Qed.

Lemma l1_vsub_self v : l1 (vsubR v v) = 0.
Proof.
  induction v as [|x v IH]; [reflexivity|].
  rewrite l1_vsub_cons, IH, (Rminus_diag_eq x x eq_refl), Rabs_R0. lra.
Qed.

Lemma inbox_length lo hi v : inbox lo hi v -> length v = length lo.
Proof. intros [H _]. symmetry. apply feasible_length. exact H. Qed.

Lemma inbox_cons a lo b hi t v : inbox (a :: lo) (b :: hi) (t :: v) <-> (a <= t <= b /\ inbox lo hi v).
Proof.
  unfold inbox. split.
  - intros [H1 H2]. apply Forall2_cons_inv in H1, H2. tauto.
  - intros [[H1 H2] [H3 H4]]. split; constructor; assumption.
Qed.

Theorem box_min_exists : forall (lo hi : list R) (f : list R -> R) (L : R),
  Forall2 Rle lo hi -> 0 <= L ->
  (forall v v', inbox lo hi v -> inbox lo hi v' -> f v - f v' <= L * l1 (vsubR v v')) ->
  exists w, inbox lo hi w /\ forall v, inbox lo hi v -> f w <= f v.
Proof.
  intros lo hi f L Hlh. revert f L.
  induction Hlh as [|a b lo hi Hab Hlh IH]; intros f L HL Hlip.
  - exists []. split; [split; constructor|].
    intros v Hv. apply inbox_length in Hv. destruct v; [apply Rle_refl | discriminate].
  - assert (Hc : forall t v, a <= t <= b -> inbox lo hi v -> inbox (a :: lo) (b :: hi) (t :: v))
      by (intros t v Ht Hv; apply inbox_cons; split; assumption).
    destruct (fibre_min (inbox lo hi) (fun t v => f (t :: v)) a b L Hab HL)
      as (ts & ws & Hts & Hws & Hmin).
    + intros t Ht. apply (IH _ L HL). intros v v' Hv Hv'.
      pose proof (Hlip _ _ (Hc t v Ht Hv) (Hc t v' Ht Hv')) as H.
      rewrite l1_vsub_cons, (Rminus_diag_eq t t eq_refl), Rabs_R0, Rplus_0_l in H. exact H.
    + intros t s v Ht Hs Hv. pose proof (Hlip _ _ (Hc t v Ht Hv) (Hc s v Hs Hv)) as H.
      rewrite l1_vsub_cons, l1_vsub_self, Rplus_0_r in H. exact H.
    + exists (ts :: ws). split; [apply Hc; assumption|].
      intros [|t v] Hv; [apply inbox_length in Hv; discriminate|].
      apply inbox_cons in Hv. exact (Hmin t v (proj1 Hv) (proj2 Hv)).
Qed.

Lemma abs_dot_l1 : forall r y, Rabs (dotR r y) <= l1 r * l1 y.
Proof.
  induction r as [|x r IH]; intros [|z y]; rewrite ?dot_nil_l, ?dot_nil_r;
    try (rewrite Rabs_R0; apply Rmult_le_pos; apply l1_nonneg).
  rewrite dot_cons, !l1_cons. apply Rle_trans with (1 := Rabs_triang _ _). rewrite Rabs_mult.
  specialize (IH y).
  pose proof (Rmult_le_pos _ _ (Rabs_pos x) (l1_nonneg y)).
  pose proof (Rmult_le_pos _ _ (l1_nonneg r) (Rabs_pos z)). lra.
Qed.

Definition Ksum (M : list (list R)) : R := vsumR (map l1 M).

Lemma Ksum_nonneg M : 0 <= Ksum M.
Proof.
  unfold Ksum. induction M as [|r M IH]; [cbn; lra|]. cbn [map]. rewrite vsum_cons.
  pose proof (l1_nonneg r). lra.
Qed.

Lemma l1_mv M y : l1 (mvR M y) <= Ksum M * l1 y.
Proof.
  unfold Ksum. induction M as [|r M IH].
  - cbn [mv map]. rewrite l1_nil. cbn. lra.
  - cbn [mv map]. fold (mvR M y). rewrite l1_cons, vsum_cons.
    pose proof (abs_dot_l1 r y). lra.
Qed.

Lemma bil_le_l1 M x y a b : l1 x <= a -> l1 y <= b -> bil M x y <= Ksum M * (a * b).
Proof.
  intros Ha Hb. unfold bil.
  apply Rle_trans with (1 := Rle_abs _). apply Rle_trans with (1 := abs_dot_l1 _ _).
  rewrite (Rmult_comm (Ksum M)), Rmult_assoc.
  apply Rmult_le_compat; [apply l1_nonneg | apply l1_nonneg | exact Ha |].
  apply Rle_trans with (1 := l1_mv M y). rewrite (Rmult_comm b).
  apply Rmult_le_compat_l; [apply Ksum_nonneg | exact Hb].
Qed.

Lemma l1_vsub_le : forall a b, l1 (vsubR a b) <= l1 a + l1 b.
Proof.
  induction a as [|x a IH]; intros [|y b]; cbn [vsub]; rewrite ?l1_nil, ?l1_cons.
  - lra.
  - pose proof (Rabs_pos y). pose proof (l1_nonneg b). lra.
  - pose proof (Rabs_pos x). pose proof (l1_nonneg a). lra.
  - rn. specialize (IH b). unfold Rminus at 1.
    pose proof (Rabs_triang x (- y)) as T. rewrite Rabs_Ropp in T. lra.
Qed.

Lemma inbox_l1 lo hi v : inbox lo hi v -> l1 v <= l1 lo + l1 hi.
Proof.
  intros [H1 H2]. revert hi H2. induction H1 as [|a x lo v Hax Hlv IH]; intros hi H2.
  - inversion H2; subst. rewrite !l1_nil. lra.
  - destruct hi as [|b hi]; [inversion H2|]. apply Forall2_cons_inv in H2. destruct H2 as [Hxb Hvh].
    rewrite !l1_cons. specialize (IH _ Hvh).
    pose proof (Rle_abs b). pose proof (Rle_abs (- a)) as Ha. rewrite Rabs_Ropp in Ha.
    pose proof (Rabs_pos a). pose proof (Rabs_pos b).
    assert (Rabs x <= Rabs a + Rabs b) by (apply Rabs_le; lra). lra.
Qed.

Lemma qf_lip_box m M lo hi : symm m M -> length lo = m ->
  exists L, 0 <= L /\ forall v v', inbox lo hi v -> inbox lo hi v' ->
    qf M v - qf M v' <= L * l1 (vsubR v v').
Proof.
  intros Hs Hlo. set (S := l1 lo + l1 hi). exists (4 * Ksum M * S). split.
  { pose proof (Ksum_nonneg M). pose proof (l1_nonneg lo). pose proof (l1_nonneg hi).
    apply Rmult_le_pos; [apply Rmult_le_pos|]; unfold S; lra. }
  intros v v' Hv Hv'.
  pose proof (inbox_l1 _ _ _ Hv) as Bv. pose proof (inbox_l1 _ _ _ Hv') as Bv'. fold S in Bv, Bv'.
  apply inbox_length in Hv, Hv'. rewrite Hlo in Hv, Hv'.
  pose proof (l1_vsub_le v v') as Bd.
  replace (qf M v) with (qf M (vaddR v' (vsubR v v')))
    by (rewrite vadd_vsub by congruence; reflexivity).
  set (d := vsubR v v') in *.
  assert (Ld : length d = m) by (unfold d; rewrite length_vsub; congruence).
  rewrite (qf_vadd m M v' d Hs Hv' Ld). unfold qf at 2.
  pose proof (bil_le_l1 M d v' (l1 d) S (Rle_refl _) Bv') as A1.
  pose proof (bil_le_l1 M d d (l1 d) (2 * S) (Rle_refl _) ltac:(lra)) as A2.
  clear -A1 A2. lra.
Qed.

Lemma dot_self_le_box : forall (v : list R) c, dotR v v <= c ->
  Forall2 Rle v (repeat (1 + c) (length v)).
Proof.
  induction v as [|x v IH]; intros c H; [constructor|].
  rewrite dot_cons in H. pose proof (dot_self_nonneg v) as P. cbn [length repeat].
  constructor; [nra|]. apply IH. nra.
Qed.

(* coercivity confines the sublevel set { v : qf M v <= qf M u } to a box *)
Theorem qp_min_exists_gen : forall m (M : list (list R)) (re : R) (u : list R),
  sconv m M re -> 0 < re -> length u = m ->
  exists w, is_min m M u w.
Proof.
  intros m M re u [Hs Hco] Hre Hu.
  set (B := qf M u). set (c := B / re).
  set (hi := repeat (1 + c) m).
  assert (Hbox : forall v, length v = m -> qf M v <= B -> Forall2 Rle v hi).
  { intros v Lv Hq. unfold hi. rewrite <- Lv. apply dot_self_le_box.
    pose proof (Hco v Lv) as H1. unfold c.
    apply Rmult_le_reg_l with re; [exact Hre|].
    unfold Rdiv. rewrite <- Rmult_assoc, Rinv_r_simpl_m by lra. lra. }
  assert (Huh : Forall2 Rle u hi) by (apply Hbox; [exact Hu | unfold B; lra]).
  destruct (qf_lip_box m M u hi Hs Hu) as (L & HL & Hlip).
  destruct (box_min_exists u hi (qf M) L Huh HL Hlip) as (w & Hw & Hmin).
  exists w. split; [rewrite (inbox_length _ _ _ Hw); exact Hu|]. split; [exact (proj1 Hw)|].
  intros v Lv Hf.
  pose proof (Hmin u (conj (feasible_refl u) Huh)) as Hwu. fold B in Hwu.
  destruct (Rle_dec (qf M v) B) as [Hq|Hq].
  - apply Hmin. split; [exact Hf | apply Hbox; assumption].
  - apply Rnot_le_lt in Hq. lra.
Qed.

Corollary qp_min_exists_unique_gen : forall m (M : list (list R)) (re : R) (u : list R),
  sconv m M re -> 0 < re -> length u = m ->
  exists w, is_min m M u w /\ forall w', is_min m M u w' -> w' = w.
Proof.
  intros m M re u Hsc Hre Hu.
  destruct (qp_min_exists_gen m M re u Hsc Hre Hu) as (w & Hw).
  exists w. split; [exact Hw|]. intros w' Hw'.
  exact (min_unique_sc m M re u w' w Hsc Hre Hw' Hw).
Qed.

Theorem qp_min_exists : forall n J s ne re u, wfmat n J ->
  (nltb RN s ne = false -> 0 < s) -> 0 < re ->
  length u = length J ->
  exists w, is_min (length J) (reg_norm_gramian RN (gramR J) s ne re) u w.
Proof.
  intros n J s ne re u HJ Hs Hre Hu.
  exact (qp_min_exists_gen (length J) _ re u (sconv_reg_norm_gramian n J s ne re HJ Hs) Hre Hu).
Qed.

Theorem qp_min_exists_unique : forall n J s ne re u, wfmat n J ->
  (nltb RN s ne = false -> 0 < s) -> 0 < re ->
  length u = length J ->
  exists w, is_min (length J) (reg_norm_gramian RN (gramR J) s ne re) u w /\
    forall w', is_min (length J) (reg_norm_gramian RN (gramR J) s ne re) u w' -> w' = w.
Proof.
  intros n J s ne re u HJ Hs Hre Hu.
  exact (qp_min_exists_unique_gen (length J) _ re u (sconv_reg_norm_gramian n J s ne re HJ Hs) Hre Hu).
Qed.

Print Assumptions box_min_exists.
Print Assumptions qp_min_exists_gen.
Print Assumptions qp_min_exists.
Print Assumptions qp_min_exists_unique.
