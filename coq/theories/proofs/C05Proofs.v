(* C05Proofs.v — linear (fixed-weight) aggregators: what backward deposits is exactly what
   torch.autograd.backward(tensors, grad_tensors = the weights split per tensor) accumulates;
   the enumeration order of the inputs is irrelevant; mtl_backward with fixed weights. *)
From Coq Require Import Reals List Bool Arith Lia Lra Permutation.
From TJ Require Import Num Linalg NumR Agg Autojac.
From TJ.proofs Require Import LinalgR AutojacBasics AutojacSpec C01Proofs.
Import ListNotations.
Local Open Scope R_scope.

Definition sl (off len : nat) (v : list R) : list R := firstn len (skipn off v).

Lemma vadd_nil_r a : vaddR a [] = [].
Proof. destruct a; reflexivity. Qed.

Lemma firstn_vadd n : forall a b, firstn n (vaddR a b) = vaddR (firstn n a) (firstn n b).
Proof.
  induction n as [|n IH]; intros a b; [reflexivity|].
  destruct a as [|x a]; [reflexivity|]. destruct b as [|y b]; [reflexivity|].
  cbn [vadd firstn]. rewrite IH. reflexivity.
Qed.

Lemma skipn_vadd n : forall a b, skipn n (vaddR a b) = vaddR (skipn n a) (skipn n b).
Proof.
  induction n as [|n IH]; intros a b; [reflexivity|].
  destruct a as [|x a]; [reflexivity|].
  destruct b as [|y b]; [cbn [vadd skipn]; rewrite vadd_nil_r; reflexivity|].
  cbn [vadd skipn]. apply IH.
Qed.

Lemma sl_vadd off len a b : sl off len (vaddR a b) = vaddR (sl off len a) (sl off len b).
Proof. unfold sl. rewrite skipn_vadd, firstn_vadd. reflexivity. Qed.

Lemma sl_vscale off len c a : sl off len (vscaleR c a) = vscaleR c (sl off len a).
Proof. unfold sl, vscale. rewrite skipn_map, firstn_map. reflexivity. Qed.

Lemma sl_vzero off len n : (off + len <= n)%nat -> sl off len (vzeroR n) = vzeroR len.
Proof.
  intros H. unfold sl. replace n with (off + (len + (n - off - len)))%nat by lia.
  rewrite skipn_vzero, firstn_vzero. reflexivity.
Qed.

Lemma sl_vm n off len : (off + len <= n)%nat -> forall w J,
  sl off len (vmR n w J) = vmR len w (map (sl off len) J).
Proof.
  intros H. induction w as [|x w IH]; intros J.
  - cbn [vm]. apply sl_vzero. exact H.
  - destruct J as [|r J]; cbn [vm map]; [apply sl_vzero; exact H|].
    rewrite sl_vadd, sl_vscale, IH. reflexivity.
Qed.

Lemma vm_app n : forall A a w B, length A = a -> wfmat n A -> wfmat n B ->
  vmR n w (A ++ B) = vaddR (vmR n (firstn a w) A) (vmR n (skipn a w) B).
Proof.
  induction A as [|r A IH]; intros a w B Ha HA HB; subst a.
  - cbn [length firstn skipn app]. cbn [vm]. symmetry. apply vadd_vzero_l.
    apply length_vm. exact HB.
  - apply Forall_cons_iff in HA. destruct HA as [Hr HA].
    destruct w as [|x w].
    + cbn [length firstn skipn app vm]. symmetry. apply vadd_vzero_vzero.
    + cbn [length firstn skipn app vm].
      rewrite (IH (length A) w B eq_refl HA HB). apply vadd_assoc.
Qed.

Lemma vm_map_fold {X} (h : X -> list R) n : forall w ls,
  vmR n w (map h ls)
  = fold_right (fun (wl : R * X) acc => vaddR (vscaleR (fst wl) (h (snd wl))) acc)
               (vzeroR n) (combine w ls).
Proof.
  induction w as [|x w IH]; intros ls; [reflexivity|].
  destruct ls as [|l ls]; [reflexivity|].
  cbn [map vm combine fold_right fst snd]. rewrite IH. reflexivity.
Qed.

Lemma vsum_map_perm (f : nat -> R) l1 l2 :
  Permutation l1 l2 -> vsumR (map f l1) = vsumR (map f l2).
Proof.
  intros Hp. induction Hp as [|x l l' Hp IH|x y l|l l' l'' Hp1 IH1 Hp2 IH2]; cbn [map].
  - reflexivity.
  - rewrite !vsum_cons, IH. reflexivity.
  - rewrite !vsum_cons. lra.
  - rewrite IH1. exact IH2.
Qed.

Lemma dot_app : forall a b c d, length a = length c ->
  dotR (a ++ b) (c ++ d) = dotR a c + dotR b d.
Proof.
  induction a as [|x a IH]; intros b c d H; destruct c as [|y c]; try discriminate H; cbn [app].
  - rewrite dot_nil_l. symmetry. apply Rplus_0_l.
  - rewrite !dot_cons, IH by exact (eq_add_S _ _ H). symmetry. apply Rplus_assoc.
Qed.

Lemma dot_concat (f g : nat -> list R) (l : list nat) :
  (forall i, In i l -> length (f i) = length (g i)) ->
  dotR (concat (map f l)) (concat (map g l)) = vsumR (map (fun i => dotR (f i) (g i)) l).
Proof.
  induction l as [|x l IH]; intros H; [reflexivity|].
  cbn [map concat]. rewrite dot_app by (apply H; left; reflexivity).
  rewrite IH by (intros i Hi; apply H; right; exact Hi). symmetry. apply vsum_cons.
Qed.

Lemma agg_constant_inv {T} (N : Num T) (w : list T) (J : list (list T)) v :
  agg_constant N w J = Ok v -> v = combine_rows N J w /\ length w = length J.
Proof.
  unfold agg_constant, weighted, constant_weights.
  destruct (Nat.eqb_spec (length w) (length J)) as [E|_]; cbn [rbind]; [|discriminate].
  intros H. injection H as <-. split; [reflexivity | exact E].
Qed.

Section C05.
Variable P : prog R.

Lemma offset_bound ord i : In i ord -> (offset P ord i + pnumel P i <= total P ord)%nat.
Proof.
  induction ord as [|x ord IH]; intros Hi; [contradiction|].
  rewrite total_cons. cbn [offset]. destruct (Nat.eqb_spec x i) as [->|Hne]; [lia|].
  destruct Hi as [Hi|Hi]; [congruence|]. specialize (IH Hi). lia.
Qed.

Lemma slice_concat ord (g : nat -> list R) i : In i ord ->
  (forall j, In j ord -> length (g j) = pnumel P j) ->
  slice_of P ord (concat (map g ord)) i = g i.
Proof.
  induction ord as [|x ord IH]; intros Hi Hg; [contradiction|].
  unfold slice_of. cbn [offset map concat].
  destruct (Nat.eqb_spec x i) as [->|Hne].
  - cbn [skipn]. rewrite firstn_app, <- (Hg i (or_introl eq_refl)).
    rewrite Nat.sub_diag, firstn_all, firstn_O, app_nil_r. reflexivity.
  - destruct Hi as [Hi|Hi]; [congruence|].
    rewrite <- skipn_add. rewrite <- (Hg x (or_introl eq_refl)).
    rewrite skipn_app, skipn_all, Nat.sub_diag, skipn_O. cbn [app].
    apply (IH Hi). intros j Hj. apply Hg. right. exact Hj.
Qed.

Lemma slice_vm ord i w J : In i ord ->
  slice_of P ord (vmR (total P ord) w J) i
  = vmR (pnumel P i) w (map (fun row => slice_of P ord row i) J).
Proof.
  intros Hi.
  exact (sl_vm (total P ord) (offset P ord i) (pnumel P i) (offset_bound ord i Hi) w J).
Qed.

Lemma jacobian_nonempty tensors ord : (1 <= total P tensors)%nat -> jacobian P tensors ord <> [].
Proof.
  intros Hm. unfold jacobian. destruct (total P tensors) as [|m]; [lia|]. cbn [seq map]. discriminate.
Qed.

Lemma length_jacobian tensors ord : length (jacobian P tensors ord) = total P tensors.
Proof. unfold jacobian. rewrite map_length, seq_length. reflexivity. Qed.

Lemma slice_jacobian tensors ord i : wf_prog P -> In i ord ->
  map (fun row => slice_of P ord row i) (jacobian P tensors ord) = Drows P tensors i.
Proof.
  intros Hwf Hi. unfold jacobian. rewrite map_map.
  transitivity (map (fun r => nth r (Drows P tensors i) []) (seq 0 (total P tensors))).
  - apply map_ext_in. intros r Hr. apply in_seq in Hr.
    apply (slice_concat ord (fun j => nth r (Drows P tensors j) []) i Hi).
    intros j _. apply wfmat_nth; [apply wfmat_Drows; exact Hwf|].
    rewrite length_Drows by exact Hwf. exact (proj2 Hr).
  - apply map_nth_seq_len. symmetry. apply length_Drows. exact Hwf.
Qed.

Lemma vm_Drows i : wf_prog P -> forall tensors w,
  vmR (pnumel P i) w (Drows P tensors i)
  = vjp RN P tensors (split_by (map (pnumel P) tensors) w) i.
Proof.
  intros Hwf. induction tensors as [|o outs IH]; intros w.
  - destruct w; reflexivity.
  - rewrite Drows_cons. cbn [map split_by]. rewrite vjp_cons.
    pose proof Hwf as [Hdim _]. destruct (Hdim o i) as [HlenD HM].
    rewrite (vm_app (pnumel P i) (p_D P o i) (pnumel P o) w (Drows P outs i) HlenD HM
                    (wfmat_Drows P outs i Hwf)).
    rewrite IH. reflexivity.
Qed.

Lemma combine_jacobian_slice tensors ord w i :
  wf_prog P -> In i ord -> (1 <= total P tensors)%nat ->
  slice_of P ord (combine_rows RN (jacobian P tensors ord) w) i
  = vjp RN P tensors (split_by (map (pnumel P) tensors) w) i.
Proof.
  intros Hwf Hi Hm.
  rewrite (combine_wf _ _ w (wfmat_jacobian P tensors ord Hwf) (jacobian_nonempty tensors ord Hm)).
  rewrite slice_vm by exact Hi. rewrite slice_jacobian by assumption.
  apply vm_Drows. exact Hwf.
Qed.

Lemma weighted_slice : forall tensors ord w i,
  wf_prog P -> NoDup ord -> In i ord -> (1 <= total P tensors)%nat ->
  length w = total P tensors ->
  slice_of P ord (combine_rows RN (jacobian P tensors ord) w) i
  = vjp RN P tensors (split_by (map (pnumel P) tensors) w) i.
Proof.
  intros tensors ord w i Hwf _ Hi Hm _. exact (combine_jacobian_slice tensors ord w i Hwf Hi Hm).
Qed.

Lemma deposit_of_weights : forall A w tensors ord k retain s d' s',
  wf_prog P -> ord <> [] -> (1 <= total P tensors)%nat ->
  A (jacobian P tensors ord) = Ok (combine_rows RN (jacobian P tensors ord) w) ->
  backward_model RN P A tensors ord k retain s = (Ok d', s') ->
  forall i, In i ord ->
    grad_val s' i = Some (acc_val (grad_val s i)
      (plain (p_shape P i)
         (materialize RN P i (ag_value RN P tensors (split_by (map (pnumel P) tensors) w) i)))).
Proof.
  intros A w tensors ord k retain s d' s' Hwf Hord Hm HAw H i Hi.
  destruct (backward_deposit P A tensors ord k retain s d' s' Hwf Hord Hm H)
    as (_ & _ & v & HA & _ & Hdep & _).
  rewrite HAw in HA. injection HA as <-.
  rewrite (Hdep i Hi). rewrite materialize_vjp by exact Hwf.
  rewrite combine_jacobian_slice by assumption. reflexivity.
Qed.

Lemma constant_deposit : forall w tensors ord k retain s d' s',
  wf_prog P -> ord <> [] -> (1 <= total P tensors)%nat ->
  backward_model RN P (agg_constant RN w) tensors ord k retain s = (Ok d', s') ->
  length w = total P tensors /\
  forall i, In i ord ->
    grad_val s' i = Some (acc_val (grad_val s i)
      (plain (p_shape P i)
         (materialize RN P i (ag_value RN P tensors (split_by (map (pnumel P) tensors) w) i)))).
Proof.
  intros w tensors ord k retain s d' s' Hwf Hord Hm H.
  destruct (backward_deposit P (agg_constant RN w) tensors ord k retain s d' s' Hwf Hord Hm H)
    as (_ & _ & v & HA & _).
  pose proof (agg_constant_inv RN _ _ _ HA) as [-> Hlw]. rewrite length_jacobian in Hlw.
  split; [exact Hlw|].
  exact (deposit_of_weights (agg_constant RN w) w tensors ord k retain s d' s' Hwf Hord Hm HA H).
Qed.

Lemma sum_deposit : forall tensors ord k retain s d' s',
  wf_prog P -> ord <> [] -> (1 <= total P tensors)%nat ->
  backward_model RN P (fun J => Ok (agg_sum RN J)) tensors ord k retain s = (Ok d', s') ->
  forall i, In i ord ->
    grad_val s' i = Some (acc_val (grad_val s i)
      (plain (p_shape P i)
         (materialize RN P i (ag_value RN P tensors
            (split_by (map (pnumel P) tensors) (repeat 1 (total P tensors))) i)))).
Proof.
  intros tensors ord k retain s d' s' Hwf Hord Hm H.
  apply (deposit_of_weights (fun J => Ok (agg_sum RN J)) (repeat 1 (total P tensors))
           tensors ord k retain s d' s' Hwf Hord Hm); [|exact H].
  cbv beta. unfold agg_sum, sum_weights. rewrite length_jacobian. reflexivity.
Qed.

Lemma mean_deposit : forall tensors ord k retain s d' s',
  wf_prog P -> ord <> [] -> (1 <= total P tensors)%nat ->
  backward_model RN P (fun J => Ok (agg_mean RN J)) tensors ord k retain s = (Ok d', s') ->
  forall i, In i ord ->
    grad_val s' i = Some (acc_val (grad_val s i)
      (plain (p_shape P i)
         (materialize RN P i (ag_value RN P tensors
            (split_by (map (pnumel P) tensors)
                      (repeat (1 / INR (total P tensors)) (total P tensors))) i)))).
Proof.
  intros tensors ord k retain s d' s' Hwf Hord Hm H.
  apply (deposit_of_weights (fun J => Ok (agg_mean RN J))
           (repeat (1 / INR (total P tensors)) (total P tensors))
           tensors ord k retain s d' s' Hwf Hord Hm); [|exact H].
  cbv beta. unfold agg_mean, mean_weights. rewrite length_jacobian. reflexivity.
Qed.

Lemma gram_jacobian_perm : forall outs ord1 ord2,
  wf_prog P -> Permutation ord1 ord2 ->
  gram RN (jacobian P outs ord1) = gram RN (jacobian P outs ord2).
Proof.
  intros outs ord1 ord2 Hwf Hp. unfold jacobian, gram. rewrite !map_map.
  apply map_ext_in. intros r Hr. apply in_seq in Hr. rewrite !map_map.
  apply map_ext_in. intros r' Hr'. apply in_seq in Hr'.
  assert (Hlen : forall i, length (nth r (Drows P outs i) []) = length (nth r' (Drows P outs i) [])).
  { intros i. rewrite !(wfmat_nth (pnumel P i)); try (apply wfmat_Drows; exact Hwf);
      try (rewrite length_Drows by exact Hwf; lia). reflexivity. }
  rewrite !dot_concat by (intros i _; apply Hlen).
  apply vsum_map_perm. exact Hp.
Qed.

Lemma weighted_order_irrelevant : forall (omega : list (list R) -> list R) tensors ord1 ord2 i,
  wf_prog P -> NoDup ord1 -> Permutation ord1 ord2 -> In i ord1 -> (1 <= total P tensors)%nat ->
  length (omega (gram RN (jacobian P tensors ord1))) = total P tensors ->
  slice_of P ord1 (combine_rows RN (jacobian P tensors ord1) (omega (gram RN (jacobian P tensors ord1)))) i
  = slice_of P ord2 (combine_rows RN (jacobian P tensors ord2) (omega (gram RN (jacobian P tensors ord2)))) i.
Proof.
  intros omega tensors ord1 ord2 i Hwf _ Hp Hi Hm _.
  rewrite <- (gram_jacobian_perm tensors ord1 ord2 Hwf Hp).
  rewrite !combine_jacobian_slice by (try assumption; exact (Permutation_in i Hp Hi)).
  reflexivity.
Qed.

Lemma mtl_weighted_slice : forall features shared losses w p,
  wf_prog P -> NoDup shared -> In p shared -> losses <> [] -> length w = length losses ->
  (forall l f, In l losses -> In f features -> length (grad_of P l f) = pnumel P f) ->
  slice_of P shared (combine_rows RN (mtl_matrix P features shared losses) w) p
  = fold_right (fun wl acc =>
                  vaddR (vscaleR (fst wl) (vjp RN P features (map (grad_of P (snd wl)) features) p)) acc)
               (vzeroR (pnumel P p)) (combine w losses).
Proof.
  intros features shared losses w p Hwf _ Hp Hne _ _.
  rewrite (combine_wf _ _ w (wfmat_mtl_matrix P features shared losses Hwf))
    by (unfold mtl_matrix; destruct losses; [congruence | discriminate]).
  rewrite slice_vm by exact Hp. unfold mtl_matrix. rewrite map_map.
  rewrite (map_ext _ (fun l => vjp RN P features (map (grad_of P l) features) p)).
  - exact (vm_map_fold (fun l => vjp RN P features (map (grad_of P l) features) p)
                       (pnumel P p) w losses).
  - intros l. unfold mtl_row.
    apply (slice_concat shared (fun q => vjp RN P features (map (grad_of P l) features) q) p Hp).
    intros q _. apply length_vjp. exact Hwf.
Qed.
End C05.

Print Assumptions weighted_slice.
Print Assumptions constant_deposit.
Print Assumptions sum_deposit.
Print Assumptions mean_deposit.
Print Assumptions gram_jacobian_perm.
Print Assumptions weighted_order_irrelevant.
Print Assumptions mtl_weighted_slice.
