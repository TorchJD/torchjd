(* C19: reset() means fresh, the recomputation schedule, the max_norm bound. *)
From Coq Require Import Reals List Lia Lra.
From TJ Require Import Num Linalg NumR Nash.
From TJ.proofs Require Import LinalgR.
Import ListNotations.

Section Generic.
Context {T : Type} (N : Num T) (k : nat) (max_norm : T) (n_tasks : nat).
Context (PS : Type) (fresh : list T -> PS) (solve : PS -> list (list T) -> list T -> list T * PS)
        (normG : list (list T) -> list (list T)).

Notation forwardN := (forward N k max_norm PS fresh solve normG).
Notation runN := (run N k max_norm n_tasks PS fresh solve normG).
Notation resetN := (reset N n_tasks PS).
Notation fullN := (@full T PS).

(* equal step and prvs_alpha, and equal problem objects unless step = 0 (then the stale problem is
   overwritten before it is used) *)
Definition sim (a b : fullN) : Prop :=
  co a = co b /\ (step (co a) = 0 \/ prob a = prob b).

Lemma forward_sim a b J : sim a b -> forwardN a J = forwardN b J.
Proof.
  intros [Hc Hp]. unfold forward. rewrite <- Hc.
  destruct (Nat.eqb_spec (step (co a)) 0) as [_|Hn]; [reflexivity|].
  destruct Hp as [H0| ->]; [contradiction | reflexivity].
Qed.

Lemma run_sim ops : forall a b, sim a b -> fst (runN a ops) = fst (runN b ops).
Proof.
  induction ops as [|o ops IH]; intros a b Hs; [reflexivity|]. destruct o as [J|]; cbn [run].
  - rewrite (forward_sim a b J Hs). reflexivity.
  - apply IH. unfold reset. split; [reflexivity|left; reflexivity].
Qed.

Lemma run_app h : forall st t,
  fst (runN st (h ++ t)) = fst (runN st h) ++ fst (runN (snd (runN st h)) t).
Proof.
  induction h as [|o h IH]; intros st t; [reflexivity|]. destruct o as [J|]; cbn [app run].
  - destruct (forwardN st J) as [out st']. specialize (IH st' t).
    destruct (runN st' (h ++ t)), (runN st' h). cbn [fst snd] in *. rewrite IH. reflexivity.
  - apply IH.
Qed.

(* after reset(), any further sequence behaves exactly as on a newly constructed aggregator
   (whatever problem object the new one starts with: it is rebuilt at step 0) *)
Theorem reset_is_fresh st0 h t ps :
  fst (runN st0 (h ++ Reset :: t)) =
  fst (runN st0 h) ++ fst (runN (mkFull (init_core N n_tasks) ps) t).
Proof.
  rewrite run_app. f_equal. cbn [run]. apply run_sim.
  unfold reset. split; [reflexivity|left; reflexivity].
Qed.

Notation step_coreN := (step_core N k max_norm).

(* the core machine on a list of calls, each with the answer the solver would give: the weights in
   use after each call and whether the solver was invoked *)
Fixpoint trace (c : core) (calls : list (list (list T) * list T)) : list (list T * bool) :=
  match calls with
  | [] => []
  | (J, ans) :: cs => let '(_, c', b) := step_coreN c J ans in (prvs c', b) :: trace c' cs
  end.

(* position-based specification: call number s (counted from the last reset) invokes the solver
   iff s mod k = 0 and then uses its answer; otherwise it reuses the previous weights unchanged *)
Fixpoint sched (s : nat) (p : list T) (calls : list (list (list T) * list T)) : list (list T * bool) :=
  match calls with
  | [] => []
  | (J, ans) :: cs => let b := (s mod k =? 0) in let a := if b then ans else p in
                      (a, b) :: sched (S s) a cs
  end.

Theorem trace_is_sched calls : forall c, trace c calls = sched (step c) (prvs c) calls.
Proof.
  induction calls as [|[J ans] cs IH]; intros c; [reflexivity|].
  cbn [trace sched]. unfold step_core. cbn [prvs]. rewrite IH. reflexivity.
Qed.

Theorem sched_flags calls : forall s p i, i < length calls ->
  snd (nth i (sched s p calls) ([], false)) = ((s + i) mod k =? 0).
Proof.
  induction calls as [|[J ans] cs IH]; intros s p i Hi; [cbn in Hi; lia|].
  destruct i as [|i]; cbn [sched nth snd].
  - rewrite Nat.add_0_r. reflexivity.
  - rewrite IH by (cbn in Hi; lia). f_equal. f_equal. lia.
Qed.

(* with step_core_v0 the second call of NashMTL(update_weights_every = 2, max_norm > 0) fails *)
Theorem v0_reuse_branch_fails c J ans : step c mod k <> 0 -> nltb N (n0 N) max_norm = true ->
  fst (fst (step_core_v0 N k max_norm c J ans)) = Err TypeError.
Proof.
  intros Hs Hm. unfold step_core_v0. cbn [fst].
  destruct (Nat.eqb_spec (step c mod k) 0); [contradiction|]. rewrite Hm. reflexivity.
Qed.

End Generic.

Local Open Scope R_scope.

Theorem rescale_bound n max_norm alpha J : wfmat n J -> J <> [] -> 0 < max_norm ->
  vnorm RN (combineR J (rescale RN max_norm alpha J)) <= max_norm.
Proof.
  intros HJ Hne Hm. unfold rescale. rn.
  assert (E : Rltb 0 max_norm = true) by (apply Rltb_true; exact Hm). rewrite E.
  rewrite !(combine_wf n) by assumption.
  set (nrm := vnorm RN (vmR n alpha J)).
  destruct (Rltb max_norm nrm) eqn:Eb.
  - apply Rltb_true in Eb.
    rewrite (map_ext _ (nmul RN (max_norm / nrm))) by (intros a; rn; field; lra).
    fold (vscaleR (max_norm / nrm) alpha). rewrite vm_vscale.
    rewrite vnorm_vscale by (apply Rlt_le, Rdiv_lt_0_compat; lra).
    fold nrm. right. field. lra.
  - apply Rltb_false in Eb. exact Eb.
Qed.
