(* C06FullHistProofs.v — the refinement of the abstract .grad accumulator extended to ALL history
   operations: backward, mtl_backward, bare engine runs (torch.autograd.grad) and user edits. *)
From Coq Require Import Reals List Bool Arith.
From TJ Require Import Num NumR Autojac History.
From TJ.proofs Require Import AutojacBasics AutojacSpec EntrySpec C20Proofs
  C01Proofs C02Proofs C06HistProofs.
Import ListNotations.

Section C06F.
Variable P : prog R.

(* what an ACCEPTED mtl_backward call does to the .grad of t: shared parameters get their slice of
   A(M), task parameters the gradients of the tasks listing them (in order), everything else is kept *)
Definition mtl_update (A : list (list R) -> res (list R)) (losses features : list tid)
           (tasks : list (list tid)) (shared : list tid) (g : gmap) (t : tid) : option (@tens R) :=
  if mem t shared then
    match A (mtl_matrix P features shared losses) with
    | Ok v => Some (acc_val (g t) (plain (p_shape P t) (slice_of P shared v t)))
    | Err _ => g t
    end
  else if mem t (concat tasks) then task_updates P tasks losses t (g t)
  else g t.

(* ABSTRACT ACCUMULATOR for every operation kind.  A failed call (code <> 0) leaves every .grad
   alone; this is what the concrete model does for backward (always) and for mtl_backward when the
   failure is an argument rejection (see full_history_ok). *)
Definition abs_step_full (g : gmap) (h : @hop R) (code : nat) : gmap :=
  match h with
  | HMtl A losses features tasks shared k retain =>
      if (code =? 0)%nat then mtl_update A losses features tasks shared g else g
  | HTorchGrad _ _ _ => g
  | _ => abs_step P g h code
  end.

Fixpoint abs_run_full (g : gmap) (hs : list (@hop R)) (codes : list nat) : gmap :=
  match hs, codes with
  | h :: hs', c :: cs => abs_run_full (abs_step_full g h c) hs' cs
  | _, _ => g
  end.

(* the side condition of each operation, relative to the store it is run in: backward calls are
   non-degenerate; an mtl_backward call either succeeds or is rejected for its arguments (a failure
   in the middle of the task transforms is NOT atomic) *)
Fixpoint full_history_ok (s : @store R) (hs : list (@hop R)) : Prop :=
  match hs with
  | [] => True
  | h :: hs' =>
      (match h with
       | HBackward _ tensors ord _ _ => ord <> [] /\ (1 <= total P tensors)%nat
       | HMtl A losses features tasks shared k retain =>
           shared <> [] /\
           (fst (hstep RN P s h) = 0%nat \/ mtl_args_ok P losses features tasks shared k retain = false)
       | _ => True
       end) /\ full_history_ok (snd (hstep RN P s h)) hs'
  end.

(* the same without the requirement that mtl_backward calls have shared parameters *)
Definition full_op_ok_gen (s : @store R) (h : @hop R) : Prop :=
  match h with
  | HBackward _ tensors ord _ _ => ord <> [] /\ (1 <= total P tensors)%nat
  | HMtl A losses features tasks shared k retain =>
      fst (hstep RN P s h) = 0%nat \/ mtl_args_ok P losses features tasks shared k retain = false
  | _ => True
  end.

Fixpoint full_history_ok_gen (s : @store R) (hs : list (@hop R)) : Prop :=
  match hs with
  | [] => True
  | h :: hs' => full_op_ok_gen s h /\ full_history_ok_gen (snd (hstep RN P s h)) hs'
  end.

Lemma full_history_ok_weaken : forall hs s, full_history_ok s hs -> full_history_ok_gen s hs.
Proof.
  intros hs. induction hs as [|h hs IH]; intros s H; [exact I|].
  cbn [full_history_ok] in H. destruct H as [Hh Hs]. split; [|exact (IH _ Hs)].
  destruct h; try exact Hh. exact (proj2 Hh).
Qed.

Lemma abs_run_full_simple : forall hs cs (g : gmap),
  simple_history P hs -> forall t, abs_run_full g hs cs t = abs_run P g hs cs t.
Proof.
  intros hs. induction hs as [|h hs IH]; intros cs g Hs t.
  - reflexivity.
  - apply simple_history_cons in Hs. destruct Hs as [Hh Hs].
    destruct cs as [|c cs]; cbn [abs_run_full abs_run]; [reflexivity|].
    destruct h; cbn [simple_op] in Hh; try contradiction; exact (IH cs _ Hs t).
Qed.

Lemma mtl_accepted_refines : forall A losses features tasks shared k retain s d' s',
  wf_prog P ->
  mtl_backward_model RN P A losses features tasks shared k retain s = (Ok d', s') ->
  forall (g : gmap) t, grad_val s t = g t ->
  grad_val s' t = mtl_update A losses features tasks shared g t.
Proof.
  intros A losses features tasks shared k retain s d' s' Hwf Em g t Hg.
  destruct (mtl_deposit_any P A losses features tasks shared k retain s d' s' Hwf Em)
    as (Hs & Hq & Hout).
  unfold mtl_update. rewrite <- Hg.
  destruct (mem t shared) eqn:Ems.
  - apply mem_In in Ems. destruct Hs as (v & -> & _ & Hin); [intros ->; exact Ems|]. exact (Hin t Ems).
  - destruct (mem t (concat tasks)) eqn:Emt.
    + apply mem_In in Emt. exact (Hq t Emt).
    + apply mem_false in Ems. apply mem_false in Emt.
      unfold grad_val. rewrite Hout; [reflexivity|].
      intros Hi. apply in_app_or in Hi. destruct Hi as [Hi|Hi]; [exact (Ems Hi) | exact (Emt Hi)].
Qed.

(* outside mtl_backward and bare engine runs the side condition and the abstract step are those
   of hstep_refines *)
Lemma hstep_refines_full : forall h s,
  wf_prog P -> full_op_ok_gen s h ->
  forall (g : gmap) t, grad_val s t = g t ->
  grad_val (snd (hstep RN P s h)) t = abs_step_full g h (fst (hstep RN P s h)) t.
Proof.
  intros h s Hwf Hh g t Hg.
  destruct h as [A tensors ord k retain|A losses features tasks shared k retain
                |outs ins retain|t0|t0|t0 v].
  2: {
    cbn [full_op_ok_gen] in Hh. unfold hstep in Hh |- *. cbv zeta in Hh |- *.
    cbn [fst snd abs_step_full] in Hh |- *.
    destruct (mtl_backward_model RN P A losses features tasks shared k retain s)
      as [[d'|e] s'] eqn:Em; cbn [fst snd] in Hh |- *.
    - exact (mtl_accepted_refines A losses features tasks shared k retain s d' s' Hwf Em g t Hg).
    - destruct Hh as [Hc|Hrej].
      + destruct e; discriminate Hc.
      + rewrite (mtl_args_rejected RN P A losses features tasks shared k retain s Hrej) in Em.
        injection Em as <- <-. exact Hg. }
  2: { (* the engine never touches .grad *)
    unfold hstep. cbv zeta. cbn [fst snd abs_step_full]. rewrite <- Hg.
    apply grad_val_grads_eq.
    exact (ag_sweep_grads P s outs ins 1 false retain _ _ (surjective_pairing _)). }
  all: apply (hstep_refines P); assumption.
Qed.

(* REFINEMENT (general form: mtl_backward calls may have no shared parameter, and the abstract
   run may start from any map that agrees with the store at t) *)
Theorem full_history_refines_from : forall hs s (g : gmap) t,
  wf_prog P -> full_history_ok_gen s hs -> grad_val s t = g t ->
  grad_val (snd (hrun RN P s hs)) t = abs_run_full g hs (fst (hrun RN P s hs)) t.
Proof.
  intros hs. induction hs as [|h hs IH]; intros s g t Hwf Hs Hg.
  - exact Hg.
  - cbn [full_history_ok_gen] in Hs. destruct Hs as [Hh Hs].
    cbn [hrun]. cbv zeta. cbn [fst snd abs_run_full].
    apply (IH _ _ t Hwf Hs). exact (hstep_refines_full h s Hwf Hh g t Hg).
Qed.

Theorem full_history_refines_accumulator_gen : forall hs s,
  wf_prog P -> full_history_ok_gen s hs ->
  forall t, grad_val (snd (hrun RN P s hs)) t
            = abs_run_full (grad_val s) hs (fst (hrun RN P s hs)) t.
Proof. intros hs s Hwf Hs t. exact (full_history_refines_from hs s (grad_val s) t Hwf Hs eq_refl). Qed.

(* REFINEMENT: for every history -- backward, mtl_backward, bare engine runs, user edits -- whose
   calls are non-degenerate and whose mtl_backward calls succeed or are rejected for their
   arguments, the .grad values of the concrete store equal those of the abstract accumulator *)
Theorem full_history_refines_accumulator : forall hs s,
  wf_prog P -> full_history_ok s hs ->
  forall t, grad_val (snd (hrun RN P s hs)) t
            = abs_run_full (grad_val s) hs (fst (hrun RN P s hs)) t.
Proof.
  intros hs s Hwf Hs.
  exact (full_history_refines_accumulator_gen hs s Hwf (full_history_ok_weaken hs s Hs)).
Qed.

(* simple histories satisfy the side condition, and on them abs_run_full is abs_run
   (abs_run_full_simple): history_refines_accumulator of C06HistProofs.v is an instance *)
Corollary simple_history_full_ok : forall hs s, simple_history P hs -> full_history_ok s hs.
Proof.
  intros hs. induction hs as [|h hs IH]; intros s Hs.
  - exact I.
  - apply simple_history_cons in Hs. destruct Hs as [Hh Hs].
    cbn [full_history_ok]. split; [|apply IH; exact Hs].
    destruct h; cbn [simple_op] in Hh; try contradiction; try exact I. exact Hh.
Qed.

(* n identical mtl_backward calls on a retained graph; None as soon as one of them is not accepted *)
Fixpoint repeat_mtl (A : list (list R) -> res (list R)) (n : nat) (losses features : list tid)
         (tasks : list (list tid)) (shared : list tid) (k : option nat) (s : @store R)
  : option (@store R) :=
  match n with
  | O => Some s
  | S n' => match mtl_backward_model RN P A losses features tasks shared k true s with
            | (Ok _, s1) => repeat_mtl A n' losses features tasks shared k s1
            | (Err _, _) => None
            end
  end.

Fixpoint iter_update (n : nat) (f : gmap -> gmap) (g : gmap) : gmap :=
  match n with O => g | S n' => iter_update n' f (f g) end.

Lemma mtl_n_fold_from : forall A n losses features tasks shared k s s' (g : gmap) t,
  wf_prog P ->
  repeat_mtl A n losses features tasks shared k s = Some s' -> grad_val s t = g t ->
  grad_val s' t = iter_update n (mtl_update A losses features tasks shared) g t.
Proof.
  intros A n losses features tasks shared k. induction n as [|n IH]; intros s s' g t Hwf Hrep Hg;
    cbn [repeat_mtl] in Hrep.
  - injection Hrep as <-. exact Hg.
  - destruct (mtl_backward_model RN P A losses features tasks shared k true s)
      as [[d1|e] s1] eqn:Em; [|discriminate Hrep].
    apply (IH s1 s' _ t Hwf Hrep).
    exact (mtl_accepted_refines A losses features tasks shared k true s d1 s1 Hwf Em g t Hg).
Qed.

Lemma mtl_n_fold : forall A n losses features tasks shared k s s',
  wf_prog P ->
  repeat_mtl A n losses features tasks shared k s = Some s' ->
  forall t, grad_val s' t
            = iter_update n (mtl_update A losses features tasks shared) (grad_val s) t.
Proof.
  intros A n losses features tasks shared k s s' Hwf Hrep t.
  exact (mtl_n_fold_from A n losses features tasks shared k s s' (grad_val s) t Hwf Hrep eq_refl).
Qed.

Lemma mtl_n_fold_history : forall A n losses features tasks shared k s s',
  wf_prog P ->
  repeat_mtl A n losses features tasks shared k s = Some s' ->
  hrun RN P s (repeat (HMtl A losses features tasks shared k true) n) = (repeat 0%nat n, s').
Proof.
  intros A n losses features tasks shared k. induction n as [|n IH]; intros s s' Hwf Hrep;
    cbn [repeat_mtl] in Hrep.
  - injection Hrep as <-. reflexivity.
  - cbn [repeat hrun hstep]. cbv zeta.
    destruct (mtl_backward_model RN P A losses features tasks shared k true s)
      as [[d1|e] s1]; [|discriminate Hrep].
    cbn [fst snd code_of]. rewrite (IH s1 s' Hwf Hrep). reflexivity.
Qed.

End C06F.

Print Assumptions full_history_refines_accumulator_gen.
Print Assumptions mtl_n_fold.
Print Assumptions mtl_n_fold_history.
Print Assumptions full_history_refines_accumulator.
