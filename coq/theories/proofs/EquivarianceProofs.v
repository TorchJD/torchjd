(* C10 (row permutations) for the Gramian-form aggregators: UPGrad / DualProj (QP minimisers),
   Krum (distinct scores), IMTL-G (pseudo-inverse), and GradDrop (a symmetric function of the
   zipped (leak_i, J_ij) list).
   C10Proofs.perm_meta speaks about  Permutation (combine w J) (combine w' J').  A row permutation is
   given here by its index list  p  with  Permutation p (seq 0 m)  :
     perm_rows p J = [J_{p_0}; J_{p_1}; ...],   permR p w = [w_{p_0}; ...],
     permM p G     = (G_{p_a p_b})_{a b}        (rows AND columns permuted),
   so that  gram (perm_rows p J) = permM p (gram J)  and an equivariant weighting plugs into
   perm_meta; every  Permutation J J'  is some  perm_rows p  (Permutation_perm_rows). *)
From Coq Require Import Reals List Lia Lra Permutation.
From TJ Require Import Num Linalg NumR Agg.
From TJ.proofs Require Import LinalgR QPProofs C03Proofs C18Proofs C16Proofs C08Proofs C11Proofs C10Proofs.
Import ListNotations.
Local Open Scope R_scope.

Definition is_perm (m : nat) (p : list nat) : Prop := Permutation p (seq 0 m).

Definition permR (p : list nat) (v : list R) : list R := map (fun i => nth i v 0) p.

Definition perm_rows (p : list nat) (J : list (list R)) : list (list R) :=
  map (fun i => nth i J []) p.

Definition permM (p : list nat) (G : list (list R)) : list (list R) :=
  map (fun i => permR p (nth i G [])) p.

(* permR and perm_rows are the instances d = 0 and d = [] (by conversion) *)
Definition permL {A} (d : A) (p : list nat) (l : list A) : list A := map (fun i => nth i l d) p.

Fixpoint pos (i : nat) (p : list nat) : nat :=
  match p with
  | [] => 0
  | j :: p' => if Nat.eqb i j then 0 else S (pos i p')
  end.

Definition inv_perm (m : nat) (p : list nat) : list nat := map (fun i => pos i p) (seq 0 m).

Lemma is_perm_length m p : is_perm m p -> length p = m.
Proof. intros H. rewrite (Permutation_length H). apply seq_length. Qed.

Lemma is_perm_in m p i : is_perm m p -> (In i p <-> (i < m)%nat).
Proof.
  intros H. split; intros Hi.
  - apply (Permutation_in _ H) in Hi. apply in_seq in Hi. lia.
  - apply (Permutation_in _ (Permutation_sym H)). apply in_seq. lia.
Qed.

Lemma is_perm_nodup m p : is_perm m p -> NoDup p.
Proof. intros H. eapply Permutation_NoDup; [symmetry; exact H|apply seq_NoDup]. Qed.

Lemma is_perm_nth_lt m p a : is_perm m p -> (a < m)%nat -> (nth a p 0%nat < m)%nat.
Proof.
  intros H Ha. apply (is_perm_in m p); [exact H|]. apply nth_In. rewrite (is_perm_length m p H). exact Ha.
Qed.

Lemma is_perm_nth_inj m p a b : is_perm m p -> (a < m)%nat -> (b < m)%nat ->
  nth a p 0%nat = nth b p 0%nat -> a = b.
Proof.
  intros H Ha Hb E. pose proof (is_perm_nodup m p H) as Hnd. pose proof (is_perm_length m p H) as Hl.
  rewrite NoDup_nth in Hnd. apply Hnd; [rewrite Hl; exact Ha|rewrite Hl; exact Hb|exact E].
Qed.

Lemma is_perm_nth_eqb m p a b : is_perm m p -> (a < m)%nat -> (b < m)%nat ->
  Nat.eqb (nth a p 0%nat) (nth b p 0%nat) = Nat.eqb a b.
Proof.
  intros H Ha Hb. destruct (Nat.eqb_spec a b) as [->|E]; [apply Nat.eqb_refl|].
  apply Nat.eqb_neq. intros E'. apply E. apply (is_perm_nth_inj m p); assumption.
Qed.

Lemma is_perm_seq m : is_perm m (seq 0 m).
Proof. apply Permutation_refl. Qed.

Lemma pos_lt i p : In i p -> (pos i p < length p)%nat.
Proof.
  induction p as [|j p IH]; intros Hi; [contradiction|]. cbn [pos length].
  destruct (Nat.eqb_spec i j) as [E|E]; [lia|]. destruct Hi as [Hi|Hi]; [congruence|].
  specialize (IH Hi). lia.
Qed.

Lemma nth_pos i p : In i p -> nth (pos i p) p 0%nat = i.
Proof.
  induction p as [|j p IH]; intros Hi; [contradiction|]. cbn [pos].
  destruct (Nat.eqb_spec i j) as [E|E]; [cbn; congruence|]. destruct Hi as [Hi|Hi]; [congruence|].
  cbn [nth]. apply IH. exact Hi.
Qed.

Lemma pos_nth p a : NoDup p -> (a < length p)%nat -> pos (nth a p 0%nat) p = a.
Proof.
  intros Hnd Ha. rewrite NoDup_nth in Hnd. apply Hnd.
  - apply pos_lt. apply nth_In. exact Ha.
  - exact Ha.
  - apply nth_pos. apply nth_In. exact Ha.
Qed.

Lemma nth_permL {A} (d : A) p l a : (a < length p)%nat ->
  nth a (permL d p l) d = nth (nth a p 0%nat) l d.
Proof. apply (nth_map_lt (fun i => nth i l d)). Qed.

Lemma permL_Permutation {A} (d : A) (l : list A) p : is_perm (length l) p ->
  Permutation l (permL d p l).
Proof.
  intros Hp. apply Permutation_sym. apply (Permutation_trans (Permutation_map _ Hp)).
  rewrite map_nth_seq. apply Permutation_refl.
Qed.

Lemma permL_comp {A} (d : A) p q (l : list A) : (forall i, In i p -> (i < length q)%nat) ->
  permL d p (permL d q l) = permL d (permL 0%nat p q) l.
Proof.
  intros H. unfold permL. rewrite map_map. apply map_ext_in. intros i Hi.
  apply (nth_map_lt (fun j => nth j l d)). apply H. exact Hi.
Qed.

Lemma is_perm_comp m p q : is_perm m p -> is_perm m q -> is_perm m (permL 0%nat q p).
Proof.
  intros Hp Hq. rewrite <- (is_perm_length m p Hp) in Hq.
  exact (Permutation_trans (Permutation_sym (permL_Permutation 0%nat p q Hq)) Hp).
Qed.

Lemma permL_inv {A} (d : A) m p q (x : list A) : (forall i, In i p -> (i < length q)%nat) ->
  permL 0%nat p q = seq 0 m -> length x = m -> permL d p (permL d q x) = x.
Proof. intros H E Hx. rewrite permL_comp by exact H. rewrite E, <- Hx. apply map_nth_seq. Qed.

Lemma length_inv_perm m p : length (inv_perm m p) = m.
Proof. unfold inv_perm. rewrite map_length. apply seq_length. Qed.

Lemma inv_perm_l m p : is_perm m p -> permL 0%nat p (inv_perm m p) = seq 0 m.
Proof.
  intros Hp. pose proof (is_perm_length m p Hp) as Hl. unfold permL.
  rewrite <- (map_seq_nth_f (fun i => nth i (inv_perm m p) 0%nat) 0%nat p), Hl.
  transitivity (map (fun a => a) (seq 0 m)); [|apply map_id].
  apply map_ext_in. intros a Ha. apply in_seq in Ha.
  unfold inv_perm. rewrite nth_map_seq by (apply (is_perm_nth_lt m p a Hp); lia).
  apply pos_nth; [exact (is_perm_nodup m p Hp)|lia].
Qed.

Lemma inv_perm_r m p : is_perm m p -> permL 0%nat (inv_perm m p) p = seq 0 m.
Proof.
  intros Hp. unfold permL, inv_perm. rewrite map_map.
  transitivity (map (fun a => a) (seq 0 m)); [|apply map_id].
  apply map_ext_in. intros i Hi. apply in_seq in Hi. apply nth_pos. apply (is_perm_in m p i Hp). lia.
Qed.

Lemma length_permR p v : length (permR p v) = length p.
Proof. apply map_length. Qed.

Lemma nth_permR p v a : (a < length p)%nat -> nth a (permR p v) 0 = nth (nth a p 0%nat) v 0.
Proof. apply nth_permL. Qed.

Lemma permR_Permutation v p : is_perm (length v) p -> Permutation v (permR p v).
Proof. apply permL_Permutation. Qed.

Lemma permR_tab m p (h : nat -> R) : is_perm m p ->
  permR p (map h (seq 0 m)) = map (fun a => h (nth a p 0%nat)) (seq 0 m).
Proof.
  intros Hp. transitivity (map h p).
  - apply map_ext_in. intros i Hi. apply nth_map_seq. apply (is_perm_in m p i Hp). exact Hi.
  - rewrite <- (is_perm_length m p Hp). symmetry. apply map_seq_nth_f.
Qed.

Lemma permR_map (f : R -> R) p v : f 0 = 0 -> permR p (map f v) = map f (permR p v).
Proof.
  intros H. unfold permR. rewrite map_map. apply map_ext. intros i.
  rewrite <- (map_nth f v 0 i), H. reflexivity.
Qed.

Lemma permR_vscale p k v : permR p (vscaleR k v) = vscaleR k (permR p v).
Proof. apply permR_map. apply Rmult_0_r. Qed.

Lemma permR_vadd p a b : length a = length b -> permR p (vaddR a b) = vaddR (permR p a) (permR p b).
Proof.
  intros H. unfold permR. induction p as [|i p IH]; [reflexivity|]. cbn [map vadd].
  rewrite IH. rewrite nth_vadd by exact H. reflexivity.
Qed.

Lemma permR_vzero p m : permR p (vzeroR m) = vzeroR (length p).
Proof. apply map_const_in. intros i _. apply nth_repeat. Qed.

Lemma permR_repeat m p c : is_perm m p -> permR p (repeat c m) = repeat c m.
Proof.
  intros Hp. unfold permR. rewrite (map_const_in _ c).
  - rewrite (is_perm_length m p Hp). reflexivity.
  - intros i Hi. apply (is_perm_in m p i Hp) in Hi. apply nth_repeat_lt. exact Hi.
Qed.

Lemma permR_mean m p : is_perm m p -> permR p (mean_weights RN m) = mean_weights RN m.
Proof. apply permR_repeat. Qed.

Lemma onehot_perm m p a x : is_perm m p -> (a < m)%nat ->
  onehotR m a x = permR p (onehotR m (nth a p 0%nat) x).
Proof.
  intros Hp Ha. pose proof (is_perm_length m p Hp) as Hl. apply (nth_ext _ _ 0 0).
  - rewrite length_onehot, length_permR. symmetry; exact Hl.
  - intros b Hb. rewrite length_onehot in Hb. rewrite nth_permR by lia.
    rewrite !nth_onehot by (auto; apply (is_perm_nth_lt m p); auto).
    rewrite (is_perm_nth_eqb m) by assumption. reflexivity.
Qed.

Lemma nonneg_permR p u : nonneg u -> nonneg (permR p u).
Proof.
  intros Hu. unfold nonneg, permR. apply Forall_forall. intros x Hx. apply in_map_iff in Hx.
  destruct Hx as (i & <- & _). destruct (lt_dec i (length u)) as [Hi|Hi].
  - unfold nonneg in Hu. rewrite Forall_forall in Hu. apply Hu. apply nth_In. exact Hi.
  - rewrite nth_overflow by lia. lra.
Qed.

Lemma feasible_permR p u v : feasible u v -> feasible (permR p u) (permR p v).
Proof. intros H. apply Forall2_map. intros i _. apply feasible_nth. exact H. Qed.

Lemma vsum_permR p v : is_perm (length v) p -> vsumR (permR p v) = vsumR v.
Proof. intros Hp. symmetry. apply vsum_perm. apply permR_Permutation. exact Hp. Qed.

Lemma dot_permR p a b : is_perm (length a) p -> length a = length b ->
  dotR (permR p a) (permR p b) = dotR a b.
Proof.
  intros Hp Hl. unfold permR. rewrite dot_map2.
  rewrite (vsum_perm _ _ (Permutation_map _ Hp)). symmetry. apply dot_as_vsum. exact Hl.
Qed.

Lemma isort_permR p r : is_perm (length r) p -> isortR (permR p r) = isortR r.
Proof.
  intros Hp. apply sorted_perm_eq; try apply isort_sorted.
  apply (Permutation_trans (isort_perm _)), Permutation_sym, (Permutation_trans (isort_perm _)).
  apply permR_Permutation. exact Hp.
Qed.

Lemma permR_p_inv m p x : is_perm m p -> length x = m -> permR p (permR (inv_perm m p) x) = x.
Proof.
  intros Hp Hx. apply (permL_inv 0 m); [|apply inv_perm_l; exact Hp|exact Hx].
  intros i Hi. rewrite length_inv_perm. apply (is_perm_in m p i Hp). exact Hi.
Qed.

Lemma permR_inv_p m p x : is_perm m p -> length x = m -> permR (inv_perm m p) (permR p x) = x.
Proof.
  intros Hp Hx. apply (permL_inv 0 m); [|apply inv_perm_r; exact Hp|exact Hx].
  intros i Hi. apply in_map_iff in Hi. destruct Hi as (j & <- & Hj). apply in_seq in Hj.
  apply pos_lt. apply (is_perm_in m p j Hp). lia.
Qed.

Lemma permR_preimage m p x' : is_perm m p -> length x' = m ->
  exists x, length x = m /\ x' = permR p x.
Proof.
  intros Hp Hx. exists (permR (inv_perm m p) x'). split.
  - rewrite length_permR. apply length_inv_perm.
  - symmetry. apply permR_p_inv; assumption.
Qed.

Lemma simplex_permR m p w : is_perm m p -> simplex m w -> simplex m (permR p w).
Proof.
  intros Hp (Hl & Hn & Hs). split; [|split].
  - rewrite length_permR. apply (is_perm_length m p Hp).
  - apply nonneg_permR. exact Hn.
  - rewrite vsum_permR by (rewrite Hl; exact Hp). exact Hs.
Qed.

Lemma simplex_perm_preimage m p w' : is_perm m p -> simplex m w' ->
  exists w, simplex m w /\ w' = permR p w.
Proof.
  intros Hp (Hl & Hn & Hs). destruct (permR_preimage m p w' Hp Hl) as (w & Hw & ->).
  exists w. split; [|reflexivity]. split; [exact Hw|]. split.
  - rewrite <- (permR_inv_p m p w Hp Hw). apply nonneg_permR. exact Hn.
  - rewrite <- (vsum_permR p) by (rewrite Hw; exact Hp). exact Hs.
Qed.

Lemma permR_vsum_rows p k L : length p = k -> wfmat k L ->
  permR p (vsum_rows RN k L) = vsum_rows RN k (map (permR p) L).
Proof.
  intros Hl. apply vsum_rows_additive; [rewrite permR_vzero, Hl; reflexivity|].
  intros a b Ha Hb. apply permR_vadd. congruence.
Qed.

Lemma vsum_rows_tab_perm m p (W : nat -> list R) : is_perm m p ->
  (forall i, (i < m)%nat -> length (W i) = m) ->
  vsum_rows RN m (map (fun a => permR p (W (nth a p 0%nat))) (seq 0 m)) =
  permR p (vsum_rows RN m (map W (seq 0 m))).
Proof.
  intros Hp HW. pose proof (is_perm_length m p Hp) as Hl.
  assert (HWm : wfmat m (map W (seq 0 m)))
    by (apply wfmat_map; intros i Hi; apply in_seq in Hi; apply HW; lia).
  assert (HP : Permutation (map W (seq 0 m)) (map W p))
    by (apply Permutation_map; symmetry; exact Hp).
  rewrite (vsum_rows_perm m _ _ HP), (permR_vsum_rows p m)
    by (auto; eapply Permutation_Forall; eassumption).
  rewrite map_map, <- Hl. f_equal. apply (map_seq_nth_f (fun i => permR p (W i)) 0%nat p).
Qed.

Lemma length_permM p G : length (permM p G) = length p.
Proof. apply map_length. Qed.

Lemma nth_permM p G a : (a < length p)%nat ->
  nth a (permM p G) [] = permR p (nth (nth a p 0%nat) G []).
Proof. apply (nth_map_lt (fun i => permR p (nth i G []))). Qed.

Lemma permM_mget p G : permM p G = map (fun i => map (fun j => mget RN G i j) p) p.
Proof. reflexivity. Qed.

Lemma wfmat_permM p G : wfmat (length p) (permM p G).
Proof. apply wfmat_map. intros i _. apply length_permR. Qed.

Lemma mget_permM p G a b : (a < length p)%nat -> (b < length p)%nat ->
  mget RN (permM p G) a b = mget RN G (nth a p 0%nat) (nth b p 0%nat).
Proof. intros Ha Hb. unfold mget. rewrite nth_permM by exact Ha. apply nth_permR. exact Hb. Qed.

Lemma mat_ext_perm m p A B : is_perm m p -> length A = m -> wfmat m A ->
  (forall a b, (a < m)%nat -> (b < m)%nat ->
     mget RN A a b = mget RN B (nth a p 0%nat) (nth b p 0%nat)) -> A = permM p B.
Proof.
  intros Hp HA HwA H. pose proof (is_perm_length m p Hp) as Hl. apply (mat_ext m); auto.
  - rewrite length_permM. exact Hl.
  - rewrite <- Hl. apply wfmat_permM.
  - intros a b Ha Hb. rewrite mget_permM by lia. apply H; assumption.
Qed.

Lemma mv_permM m M p y : length M = m -> wfmat m M -> is_perm m p -> length y = m ->
  mvR (permM p M) (permR p y) = permR p (mvR M y).
Proof.
  intros HM Hwf Hp Hy. unfold permM, mv at 1. rewrite map_map. unfold permR at 3.
  apply map_ext_in. intros i Hi. apply (is_perm_in m p i Hp) in Hi.
  rewrite nth_mv by lia. apply dot_permR; rewrite (wfmat_nth m) by (auto; lia); congruence.
Qed.

Theorem bil_perm m M p x y : length M = m -> wfmat m M -> is_perm m p ->
  length x = m -> length y = m ->
  bil (permM p M) (permR p x) (permR p y) = bil M x y.
Proof.
  intros HM Hwf Hp Hx Hy. unfold bil. rewrite (mv_permM m) by assumption.
  apply dot_permR; [rewrite Hx; exact Hp | rewrite length_mv; congruence].
Qed.

Theorem qf_perm m M p x : length M = m -> wfmat m M -> is_perm m p -> length x = m ->
  qf (permM p M) (permR p x) = qf M x.
Proof. intros. unfold qf. apply (bil_perm m); assumption. Qed.

Lemma column_permM p B b : (b < length p)%nat ->
  column RN (permM p B) b = permR p (column RN B (nth b p 0%nat)).
Proof.
  intros Hb. unfold permM. rewrite column_map, map_map. apply map_ext. intros i.
  rewrite nth_permR by exact Hb. rewrite mget_column. reflexivity.
Qed.

Lemma vm_permM m p r B : is_perm m p -> length r = m -> length B = m -> wfmat m B ->
  vmR m (permR p r) (permM p B) = permR p (vmR m r B).
Proof.
  intros Hp Hr HB HwB. pose proof (is_perm_length m p Hp) as Hl.
  assert (HwB' : wfmat m (permM p B)) by (rewrite <- Hl; apply wfmat_permM).
  apply (nth_ext _ _ 0 0).
  - rewrite length_permR, (length_vm m) by exact HwB'. symmetry. exact Hl.
  - intros b Hb. rewrite (length_vm m) in Hb by exact HwB'.
    pose proof (is_perm_nth_lt m p b Hp Hb) as Hpb. rewrite <- Hl in Hb.
    rewrite nth_permR by exact Hb.
    rewrite (nth_vm m b), (nth_vm m (nth b p 0%nat))
      by (auto; rewrite ?length_permR, ?length_permM; congruence).
    rewrite column_permM by exact Hb.
    apply dot_permR; rewrite Hr; [exact Hp|]. rewrite length_column. symmetry. exact HB.
Qed.

Lemma mmul_permM m A B p : length A = m -> wfmat m A -> length B = m -> wfmat m B ->
  is_perm m p -> mmulR m (permM p A) (permM p B) = permM p (mmulR m A B).
Proof.
  intros HA HwA HB HwB Hp. unfold mmul. unfold permM at 2 3. rewrite map_map. apply map_ext_in.
  intros i Hi. apply (is_perm_in m p i Hp) in Hi. rewrite <- HA in Hi.
  rewrite (nth_map_lt (fun r => vmR m r B) A i [] [] Hi).
  apply (vm_permM m); auto. apply wfmat_nth; assumption.
Qed.

Lemma transpose_permM m A p : length A = m -> is_perm m p ->
  transposeR m (permM p A) = permM p (transposeR m A).
Proof.
  intros HA Hp. pose proof (is_perm_length m p Hp) as Hl.
  apply (mat_ext_perm m); [exact Hp|apply length_transpose| |].
  - pose proof (wfmat_transpose m (permM p A)) as H. rewrite length_permM, Hl in H. exact H.
  - intros a b Ha Hb. rewrite !mget_transpose by (auto; apply (is_perm_nth_lt m p); auto).
    apply mget_permM; lia.
Qed.

Lemma mscale_perm c X p : mscale RN c (permM p X) = permM p (mscale RN c X).
Proof.
  unfold permM, mscale. rewrite map_map. apply map_ext. intros i. symmetry.
  rewrite <- permR_vscale. f_equal. apply (map_nth (vscaleR c) X [] i).
Qed.

Lemma mzero_perm m p : is_perm m p -> mzero RN m = permM p (mzero RN m).
Proof.
  intros Hp. apply (mat_ext_perm m); auto using length_mzero, wfmat_mzero.
  intros a b Ha Hb. rewrite !mget_mzero; auto. apply (is_perm_nth_lt m p); auto.
Qed.

Lemma regularize_perm m X p eps : length X = m -> wfmat m X -> is_perm m p ->
  regularize RN (permM p X) eps = permM p (regularize RN X eps).
Proof.
  intros HX Hwf Hp. pose proof (is_perm_length m p Hp) as Hl.
  assert (Hwf' : wfmat m (permM p X)) by (rewrite <- Hl; apply wfmat_permM).
  apply (mat_ext_perm m); [exact Hp| | |].
  - unfold regularize. rewrite length_add_diag, length_permM. exact Hl.
  - apply wfmat_add_diag. exact Hwf'.
  - intros i j Hi Hj.
    pose proof (is_perm_nth_lt m p i Hp Hi) as Hpi. pose proof (is_perm_nth_lt m p j Hp Hj) as Hpj.
    rewrite !(mget_regularize m) by (auto; rewrite ?length_permM; lia).
    rewrite mget_permM, (is_perm_nth_eqb m) by (auto; lia). reflexivity.
Qed.

Theorem reg_norm_gramian_perm m G p s ne re : length G = m -> wfmat m G -> is_perm m p ->
  reg_norm_gramian RN (permM p G) s ne re = permM p (reg_norm_gramian RN G s ne re).
Proof.
  intros HG Hwf Hp. pose proof (is_perm_length m p Hp) as Hl.
  unfold reg_norm_gramian, normalized_gramian. rewrite length_permM, Hl, HG.
  destruct (nltb RN s ne).
  - transitivity (regularize RN (permM p (mzero RN m)) re); [f_equal; apply (mzero_perm m p Hp)|].
    apply (regularize_perm m); auto using length_mzero, wfmat_mzero.
  - rewrite mscale_perm. apply (regularize_perm m); auto using wfmat_mscale.
    rewrite length_mscale. exact HG.
Qed.

Lemma length_perm_rows p J : length (perm_rows p J) = length p.
Proof. apply map_length. Qed.

Lemma wfmat_perm_rows n p J : wfmat n J -> (forall i, In i p -> (i < length J)%nat) ->
  wfmat n (perm_rows p J).
Proof. intros HJ Hp. apply wfmat_map. intros i Hi. apply wfmat_nth; auto. Qed.

Lemma perm_rows_Permutation J p : is_perm (length J) p -> Permutation J (perm_rows p J).
Proof. apply permL_Permutation. Qed.

Lemma combine_perm_rows w J p : length w = length J -> is_perm (length J) p ->
  Permutation (List.combine w J) (List.combine (permR p w) (perm_rows p J)).
Proof.
  intros Hl Hp.
  replace (List.combine (permR p w) (perm_rows p J)) with (permL (0, []) p (List.combine w J)).
  - apply permL_Permutation. rewrite combine_length, Hl, Nat.min_id. exact Hp.
  - unfold permL, permR, perm_rows. clear Hp. induction p as [|i p IH]; [reflexivity|].
    cbn [map List.combine]. rewrite IH, combine_nth by exact Hl. reflexivity.
Qed.

Theorem gram_perm_rows J p : gramR (perm_rows p J) = permM p (gramR J).
Proof.
  rewrite permM_mget. unfold gram at 1, perm_rows. rewrite map_map. apply map_ext. intros i.
  rewrite map_map. apply map_ext. intros j. symmetry. apply mget_gram.
Qed.

Corollary reg_norm_gramian_perm_rows J p s ne re : is_perm (length J) p ->
  reg_norm_gramian RN (gramR (perm_rows p J)) s ne re =
  permM p (reg_norm_gramian RN (gramR J) s ne re).
Proof.
  intros Hp. rewrite gram_perm_rows.
  apply (reg_norm_gramian_perm (length J)); auto using length_gram, wfmat_gram.
Qed.

Theorem Permutation_perm_rows (J J' : list (list R)) : Permutation J J' ->
  exists p, is_perm (length J) p /\ J' = perm_rows p J.
Proof.
  induction 1 as [|x l l' Hp IH|x y l|l l' l'' H1 IH1 H2 IH2].
  - exists []. split; [apply Permutation_refl|reflexivity].
  - destruct IH as (p & Hpp & ->). exists (0%nat :: map S p). split.
    + unfold is_perm. cbn [length seq]. constructor. rewrite <- seq_shift. apply Permutation_map. exact Hpp.
    + unfold perm_rows. cbn [map nth]. f_equal. rewrite map_map. reflexivity.
  - exists (1%nat :: 0%nat :: seq 2 (length l)). split.
    + unfold is_perm. cbn [length seq]. apply perm_swap.
    + unfold perm_rows. cbn [map nth]. do 2 f_equal.
      rewrite <- seq_shift, map_map, <- seq_shift, map_map. cbn [nth]. symmetry. apply map_nth_seq.
  - destruct IH1 as (p1 & Hp1 & ->). destruct IH2 as (p2 & Hp2 & ->).
    rewrite length_perm_rows, (is_perm_length _ _ Hp1) in Hp2.
    exists (permL 0%nat p2 p1). split.
    + exact (is_perm_comp _ p1 p2 Hp1 Hp2).
    + apply (permL_comp []). intros i Hi. rewrite (is_perm_length _ _ Hp1).
      apply (is_perm_in _ _ i Hp2). exact Hi.
Qed.

Lemma perm_rows_invariant {B} (F : list (list R) -> B) J J' :
  (forall p, is_perm (length J) p -> F (perm_rows p J) = F J) -> Permutation J J' -> F J' = F J.
Proof.
  intros H HP. destruct (Permutation_perm_rows J J' HP) as (p & Hp & ->). apply H. exact Hp.
Qed.

(* instance of C10Proofs.perm_meta; for J = [] both sides are the zero vector *)
Theorem gramian_form_perm n J p (w w' : list R) : wfmat n J ->
  is_perm (length J) p -> length w = length J -> w' = permR p w ->
  combineR (perm_rows p J) w' = combineR J w.
Proof.
  intros HJ Hp Hw ->. destruct J as [|r J].
  - apply Permutation_sym, Permutation_nil in Hp. subst p. destruct w; [reflexivity|discriminate].
  - symmetry. apply (perm_meta n); [exact HJ|discriminate|exact Hw| |].
    + rewrite length_permR, length_perm_rows. reflexivity.
    + apply combine_perm_rows; assumption.
Qed.

Theorem weighted_perm n J p (r : res (list R)) : wfmat n J -> is_perm (length J) p ->
  (forall w, r = Ok w -> length w = length J) ->
  weighted RN (perm_rows p J) (res_map (permR p) r) = weighted RN J r.
Proof.
  intros HJ Hp Hr. destruct r as [w|e]; cbn [res_map weighted rbind]; [|reflexivity].
  f_equal. apply (gramian_form_perm n); auto.
Qed.

Lemma pref_weights_perm m p (pref : option (list R)) (c : R) : is_perm m p ->
  pref_weights (option_map (permR p) pref) (repeat c m) m =
  Ok (permR p (match pref with Some w => w | None => repeat c m end)).
Proof.
  intros Hp. destruct pref as [w|]; cbn [option_map pref_weights].
  - apply constant_weights_ok. rewrite length_permR. exact (is_perm_length m p Hp).
  - rewrite permR_repeat by exact Hp. reflexivity.
Qed.

(* whatever is computed from the weights in use: a continuation F' that does on permR p u what F
   does on u gives the same result on the permuted preference *)
Lemma pref_bind_perm {A} m p pref (c : R) (F F' : list R -> res A) : is_perm m p ->
  (forall w, pref = Some w -> length w = m) ->
  (forall u, pref_weights pref (repeat c m) m = Ok u -> length u = m -> F' (permR p u) = F u) ->
  rbind (pref_weights (option_map (permR p) pref) (repeat c m) m) F' =
  rbind (pref_weights pref (repeat c m) m) F.
Proof.
  intros Hp Hpref HF.
  pose proof (pref_weights_resolved pref (repeat c m) m (pref_ok_some pref m Hpref)) as Eu.
  rewrite (pref_weights_perm m p pref c Hp), Eu. cbn [rbind]. apply HF; [exact Eu|].
  apply (pref_weights_length pref (repeat c m) m _ (repeat_length c m) Eu).
Qed.

(* for DualProj, UPGrad and Aligned-MTL: W need only be equivariant on the resolved preference *)
Theorem pref_weighted_perm n J p pref (W W' : list R -> list R) : wfmat n J ->
  is_perm (length J) p -> (forall w, pref = Some w -> length w = length J) ->
  let m := length J in
  (forall u, pref_weights pref (mean_weights RN m) m = Ok u -> length u = m ->
     length (W u) = m /\ W' (permR p u) = permR p (W u)) ->
  rbind (pref_weights (option_map (permR p) pref) (mean_weights RN (length (perm_rows p J)))
           (length (perm_rows p J)))
        (fun u => Ok (combineR (perm_rows p J) (W' u))) =
  rbind (pref_weights pref (mean_weights RN m) m) (fun u => Ok (combineR J (W u))).
Proof.
  intros HJ Hp Hpref m HW. rewrite length_perm_rows, (is_perm_length _ _ Hp). fold m.
  apply (pref_bind_perm m p pref (ndiv RN (n1 RN) (nofnat RN m))); auto.
  intros u Eu Hu. destruct (HW u Eu Hu) as (HlW & EW). f_equal.
  apply (gramian_form_perm n); auto.
Qed.

(* the permuted problem is the substitution v = permR p x, undone by the inverse permutation *)
Theorem is_min_perm_iff m M p u w : length M = m -> wfmat m M -> is_perm m p ->
  length u = m -> length w = m ->
  (is_min m M u w <-> is_min m (permM p M) (permR p u) (permR p w)).
Proof.
  intros HM Hwf Hp Hu Hw.
  destruct (is_min_subst m M (permM p M) u (permR p u) (permR (inv_perm m p)) (permR p) 1)
    as [Hto Hfrom].
  - exact Rlt_0_1.
  - intros v _. rewrite length_permR. apply length_inv_perm.
  - intros x _. rewrite length_permR. apply (is_perm_length m p Hp).
  - intros x Hx. apply permR_inv_p; assumption.
  - intros v Hv. rewrite Rmult_1_l, <- (qf_perm m M p (permR (inv_perm m p) v) HM Hwf Hp).
    + rewrite (permR_p_inv m p v Hp Hv). reflexivity.
    + rewrite length_permR. apply length_inv_perm.
  - intros v _ Hf. rewrite <- (permR_inv_p m p u Hp Hu). apply feasible_permR. exact Hf.
  - intros x _. apply feasible_permR.
  - split; [apply Hto|]. intros H. apply Hfrom in H. rewrite permR_inv_p in H by assumption. exact H.
Qed.

Theorem is_min_perm m M p u w : length M = m -> wfmat m M -> is_perm m p ->
  is_min m M u w -> is_min m (permM p M) (permR p u) (permR p w).
Proof.
  intros HM Hwf Hp Hmin. pose proof Hmin as (Hw & Hf & _).
  apply is_min_perm_iff; [exact HM | exact Hwf | exact Hp | | exact Hw | exact Hmin].
  rewrite (feasible_length _ _ Hf). exact Hw.
Qed.

Theorem reg_min_perm_unique n J p s ne re u w w' : wfmat n J -> is_perm (length J) p ->
  (nltb RN s ne = false -> 0 < s) -> 0 < re ->
  is_min (length J) (reg_norm_gramian RN (gramR J) s ne re) u w ->
  is_min (length J) (reg_norm_gramian RN (gramR (perm_rows p J)) s ne re) (permR p u) w' ->
  w' = permR p w.
Proof.
  intros HJ Hp Hs Hre Hmin Hmin'.
  pose proof (wfmat_perm_rows n p J HJ (fun i => proj1 (is_perm_in _ p i Hp))) as HJ'.
  pose proof (sconv_reg_norm_gramian n (perm_rows p J) s ne re HJ' Hs) as Hsc.
  rewrite length_perm_rows, (is_perm_length _ _ Hp) in Hsc.
  apply (min_unique_sc (length J) _ re (permR p u) _ _ Hsc Hre Hmin').
  rewrite reg_norm_gramian_perm_rows by exact Hp. apply is_min_perm; auto.
  - rewrite length_reg_norm_gramian. apply length_gram.
  - apply wfmat_reg_norm_gramian; [apply length_gram|apply wfmat_gram].
Qed.

Theorem dualproj_weights_equivariant n J p qp s ne re u : wfmat n J -> is_perm (length J) p ->
  (nltb RN s ne = false -> 0 < s) -> 0 < re ->
  let m := length J in
  let M := reg_norm_gramian RN (gramR J) s ne re in
  let M' := reg_norm_gramian RN (gramR (perm_rows p J)) s ne re in
  is_min m M u (qp M u) ->
  is_min m M' (permR p u) (qp M' (permR p u)) ->
  dualproj_weights RN qp (gramR (perm_rows p J)) s ne re (permR p u) =
  permR p (dualproj_weights RN qp (gramR J) s ne re u).
Proof.
  intros HJ Hp Hs Hre m M M' Hmin Hmin'. unfold dualproj_weights. fold M M'.
  eapply (reg_min_perm_unique n J p s ne re u); eassumption.
Qed.

Theorem agg_dualproj_perm n J p qp pref s ne re : wfmat n J ->
  is_perm (length J) p -> (nltb RN s ne = false -> 0 < s) -> 0 < re ->
  (forall w, pref = Some w -> length w = length J) ->
  let m := length J in
  let M := reg_norm_gramian RN (gramR J) s ne re in
  let M' := reg_norm_gramian RN (gramR (perm_rows p J)) s ne re in
  (forall u, pref_weights pref (mean_weights RN m) m = Ok u ->
     is_min m M u (qp M u) /\ is_min m M' (permR p u) (qp M' (permR p u))) ->
  agg_dualproj RN qp (option_map (permR p) pref) s ne re (perm_rows p J) =
  agg_dualproj RN qp pref s ne re J.
Proof.
  intros HJ Hp Hs Hre Hpref m M M' Hqp. unfold agg_dualproj.
  apply (pref_weighted_perm n J p pref (dualproj_weights RN qp (gramR J) s ne re)
           (dualproj_weights RN qp (gramR (perm_rows p J)) s ne re)); auto.
  intros u Eu _. destruct (Hqp u Eu) as (Hmin & Hmin'). split.
  - apply Hmin.
  - apply (dualproj_weights_equivariant n); assumption.
Qed.

(* with the default (mean) preference nothing but J is permuted *)
Theorem agg_dualproj_Permutation n J J' qp s ne re : wfmat n J -> J <> [] -> Permutation J J' ->
  (nltb RN s ne = false -> 0 < s) -> 0 < re ->
  let m := length J in
  let u := mean_weights RN m in
  let M := reg_norm_gramian RN (gramR J) s ne re in
  let M' := reg_norm_gramian RN (gramR J') s ne re in
  is_min m M u (qp M u) -> is_min m M' u (qp M' u) ->
  agg_dualproj RN qp None s ne re J' = agg_dualproj RN qp None s ne re J.
Proof.
  intros HJ _ Hp Hs Hre m u M M' Hmin Hmin'.
  destruct (Permutation_perm_rows J J' Hp) as (p & Hpp & ->).
  apply (agg_dualproj_perm n J p qp None s ne re); auto; [discriminate|].
  cbn [pref_weights]. intros u0 E. injection E as <-. fold m u M M'.
  unfold u. rewrite (permR_mean m p Hpp). split; assumption.
Qed.

(* non-vacuity of the oracle hypotheses of dualproj_weights_equivariant: in the no-conflict case
   the oracle  qp _ u = u  answers minimisers on both sides *)
Lemma dualproj_oracle_hyps_satisfiable n J p s ne re u : wfmat n J -> is_perm (length J) p ->
  0 < s -> nltb RN s ne = false -> 0 <= re ->
  (forall r r', In r J -> In r' J -> 0 <= dotR r r') -> length u = length J -> nonneg u ->
  let qp := fun (_ : list (list R)) (x : list R) => x in
  let M := reg_norm_gramian RN (gramR J) s ne re in
  let M' := reg_norm_gramian RN (gramR (perm_rows p J)) s ne re in
  is_min (length J) M u (qp M u) /\ is_min (length J) M' (permR p u) (qp M' (permR p u)).
Proof.
  intros HJ Hp Hs Hne Hre Hnc Hu Hnn qp M M'. pose proof (perm_rows_Permutation J p Hp) as HP.
  split; [apply (no_conflict_min n); assumption|].
  rewrite <- (is_perm_length _ _ Hp), <- (length_perm_rows p J).
  apply (no_conflict_min n (perm_rows p J) s ne re (permR p u)); auto.
  - apply (wfmat_perm_rows n p J HJ). intros i. apply (is_perm_in _ p i Hp).
  - intros r r' Hr Hr'. apply Hnc; apply (Permutation_in _ (Permutation_sym HP)); assumption.
  - rewrite length_permR, length_perm_rows. reflexivity.
  - apply nonneg_permR. exact Hnn.
Qed.

Theorem upgrad_weights_equivariant n J p qp s ne re u : wfmat n J -> is_perm (length J) p ->
  (nltb RN s ne = false -> 0 < s) -> 0 < re -> length u = length J ->
  let m := length J in
  let M := reg_norm_gramian RN (gramR J) s ne re in
  let M' := reg_norm_gramian RN (gramR (perm_rows p J)) s ne re in
  let u' := permR p u in
  (forall i, (i < m)%nat ->
     is_min m M (onehotR m i (vget RN u i)) (qp M (onehotR m i (vget RN u i)))) ->
  (forall i, (i < m)%nat ->
     is_min m M' (onehotR m i (vget RN u' i)) (qp M' (onehotR m i (vget RN u' i)))) ->
  upgrad_weights RN qp (gramR (perm_rows p J)) s ne re u' =
  permR p (upgrad_weights RN qp (gramR J) s ne re u).
Proof.
  intros HJ Hp Hs Hre Hu m M M' u' Hmin Hmin'.
  pose proof (is_perm_length _ _ Hp) as Hl. fold m in Hl, Hu, Hp.
  unfold upgrad_weights. cbv zeta.
  replace (length u') with m by (unfold u'; rewrite length_permR; symmetry; exact Hl).
  rewrite Hu. fold M M'.
  set (W := fun i => qp M (onehotR m i (vget RN u i))).
  etransitivity; [|apply (vsum_rows_tab_perm m p W Hp); intros i Hi; apply (Hmin i Hi)].
  f_equal. apply map_ext_in. intros a Ha. apply in_seq in Ha. cbn [Nat.add] in Ha.
  pose proof (is_perm_nth_lt m p a Hp (proj2 Ha)) as Hpa. specialize (Hmin' a (proj2 Ha)).
  (* the a-th problem on the permuted side is the permutation of the p_a-th problem *)
  assert (E : onehotR m a (vget RN u' a) =
              permR p (onehotR m (nth a p 0%nat) (vget RN u (nth a p 0%nat)))).
  { rewrite <- (onehot_perm m p a _ Hp (proj2 Ha)). f_equal. apply nth_permR. lia. }
  rewrite E in Hmin' |- *.
  exact (reg_min_perm_unique n J p s ne re _ _ _ HJ Hp Hs Hre (Hmin _ Hpa) Hmin').
Qed.

Theorem agg_upgrad_perm n J p qp pref s ne re : wfmat n J ->
  is_perm (length J) p -> (nltb RN s ne = false -> 0 < s) -> 0 < re ->
  (forall w, pref = Some w -> length w = length J) ->
  let m := length J in
  let M := reg_norm_gramian RN (gramR J) s ne re in
  let M' := reg_norm_gramian RN (gramR (perm_rows p J)) s ne re in
  (forall u i, pref_weights pref (mean_weights RN m) m = Ok u -> (i < m)%nat ->
     is_min m M (onehotR m i (vget RN u i)) (qp M (onehotR m i (vget RN u i))) /\
     is_min m M' (onehotR m i (vget RN (permR p u) i))
                 (qp M' (onehotR m i (vget RN (permR p u) i)))) ->
  agg_upgrad RN qp (option_map (permR p) pref) s ne re (perm_rows p J) =
  agg_upgrad RN qp pref s ne re J.
Proof.
  intros HJ Hp Hs Hre Hpref m M M' Hqp. unfold agg_upgrad.
  apply (pref_weighted_perm n J p pref (upgrad_weights RN qp (gramR J) s ne re)
           (upgrad_weights RN qp (gramR (perm_rows p J)) s ne re)); auto.
  intros u Eu Hu. split.
  - unfold upgrad_weights. rewrite Hu. apply length_vsum_rows. apply (wfmat_map m).
    intros i Hi. apply in_seq in Hi. apply (Hqp u i Eu). lia.
  - apply (upgrad_weights_equivariant n); auto; intros i Hi; apply (Hqp u i Eu Hi).
Qed.

Theorem agg_upgrad_Permutation n J J' qp s ne re : wfmat n J -> J <> [] -> Permutation J J' ->
  (nltb RN s ne = false -> 0 < s) -> 0 < re ->
  let m := length J in
  let u := mean_weights RN m in
  let M := reg_norm_gramian RN (gramR J) s ne re in
  let M' := reg_norm_gramian RN (gramR J') s ne re in
  (forall i, (i < m)%nat ->
     is_min m M (onehotR m i (vget RN u i)) (qp M (onehotR m i (vget RN u i))) /\
     is_min m M' (onehotR m i (vget RN u i)) (qp M' (onehotR m i (vget RN u i)))) ->
  agg_upgrad RN qp None s ne re J' = agg_upgrad RN qp None s ne re J.
Proof.
  intros HJ _ Hp Hs Hre m u M M' Hmin.
  destruct (Permutation_perm_rows J J' Hp) as (p & Hpp & ->).
  apply (agg_upgrad_perm n J p qp None s ne re); auto; [discriminate|].
  cbn [pref_weights]. intros u0 i E Hi. injection E as <-. fold m u M M'.
  unfold u. rewrite (permR_mean m p Hpp). apply Hmin. exact Hi.
Qed.

Lemma krum_dist_perm p G a b : (a < length p)%nat -> (b < length p)%nat ->
  krum_dist RN (permM p G) a b = krum_dist RN G (nth a p 0%nat) (nth b p 0%nat).
Proof. intros Ha Hb. unfold krum_dist. rewrite !mget_permM by assumption. reflexivity. Qed.

Lemma krum_distances_perm m G p : length G = m -> is_perm m p ->
  krum_distances RN (permM p G) = permM p (krum_distances RN G).
Proof.
  intros HG Hp. pose proof (is_perm_length m p Hp) as Hl.
  assert (HG' : length (permM p G) = m) by (rewrite length_permM; exact Hl).
  apply (mat_ext_perm m); [exact Hp| | |].
  - rewrite length_krum_distances. exact HG'.
  - pose proof (wfmat_krum_distances (permM p G)) as H. rewrite HG' in H. exact H.
  - intros a b Ha Hb. pose proof (is_perm_nth_lt m p a Hp Ha). pose proof (is_perm_nth_lt m p b Hp Hb).
    rewrite !mget_krum_distances by lia. apply krum_dist_perm; lia.
Qed.

Lemma krum_scores_perm m D p nc : length D = m -> wfmat m D -> is_perm m p ->
  krum_scores RN (permM p D) nc = permR p (krum_scores RN D nc).
Proof.
  intros HD Hwf Hp. unfold krum_scores, permM. rewrite map_map. unfold permR at 2.
  apply map_ext_in. intros i Hi. apply (is_perm_in m p i Hp) in Hi. rewrite <- HD in Hi.
  rewrite (nth_map_lt (fun row => vsumR (skipn 1 (firstn (nc + 1) (isortR row)))) D i 0 [] Hi).
  rewrite isort_permR; [reflexivity|]. rewrite (wfmat_nth m) by assumption. exact Hp.
Qed.

(* with pairwise distinct values (no exact ties among the scores) the set of the k smallest is unique,
   so the selection commutes with p; among tied scores smallest_k goes by the order of the rows *)
Definition distinct_on (m : nat) (v : list R) : Prop :=
  forall i j, (i < m)%nat -> (j < m)%nat -> i <> j -> nth i v 0 <> nth j v 0.

Definition lowset (v : list R) (S : list nat) : Prop :=
  NoDup S /\ (forall i, In i S -> (i < length v)%nat) /\
  (forall i j, In i S -> (j < length v)%nat -> ~ In j S -> nth i v 0 <= nth j v 0).

Lemma smallest_k_lowset k v : (k <= length v)%nat ->
  lowset v (smallest_k RN k v) /\ length (smallest_k RN k v) = k.
Proof.
  intros Hk. destruct (smallest_k_spec k v Hk) as (H1 & H2 & H3 & H4).
  split; [split; [exact H1|split; [exact H3|exact H4]]|exact H2].
Qed.

Lemma lowset_unique v S T : distinct_on (length v) v -> lowset v S -> lowset v T ->
  length S = length T -> forall i, In i S -> In i T.
Proof.
  intros Hd (HS1 & HS2 & HS3) (HT1 & HT2 & HT3) Hlen i Hi.
  destruct (in_dec Nat.eq_dec i T) as [H|H]; [exact H|exfalso].
  destruct (exists_not_in S T i HT1 (Nat.eq_le_incl _ _ Hlen) Hi H) as (j & HjT & HjS).
  pose proof (HS3 i j Hi (HT2 j HjT) HjS) as L1.
  pose proof (HT3 j i HjT (HS2 i Hi) H) as L2.
  assert (Hij : i <> j) by (intros ->; contradiction).
  apply (Hd i j (HS2 i Hi) (HT2 j HjT) Hij). lra.
Qed.

Lemma lowset_permR m v p S : length v = m -> is_perm m p -> lowset (permR p v) S ->
  lowset v (map (fun a => nth a p 0%nat) S).
Proof.
  intros Hv Hp (H1 & H2 & H3). pose proof (is_perm_length m p Hp) as Hl.
  rewrite length_permR, Hl in H2, H3. unfold lowset. rewrite Hv. split; [|split].
  - apply NoDup_map_inj_in; [|exact H1]. intros x y Hx Hy. apply (is_perm_nth_inj m p); auto.
  - intros i Hi. apply in_map_iff in Hi. destruct Hi as (a & <- & Ha). apply (is_perm_nth_lt m p); auto.
  - intros i j Hi Hj HjT. apply in_map_iff in Hi. destruct Hi as (a & <- & Ha).
    apply (is_perm_in m p j Hp) in Hj.
    pose proof (pos_lt j p Hj) as Hb. pose proof (nth_pos j p Hj) as Ejb. rewrite Hl in Hb.
    rewrite <- Ejb, <- !nth_permR by (rewrite Hl; auto). apply H3; auto.
    intros X. apply HjT. apply in_map_iff. exists (pos j p). split; assumption.
Qed.

Theorem smallest_k_perm m v p k : length v = m -> is_perm m p -> distinct_on m v -> (k <= m)%nat ->
  forall a, (a < m)%nat ->
    (In a (smallest_k RN k (permR p v)) <-> In (nth a p 0%nat) (smallest_k RN k v)).
Proof.
  intros Hv Hp Hd Hk. subst m. pose proof (is_perm_length _ p Hp) as Hl.
  assert (Hk' : (k <= length (permR p v))%nat) by (rewrite length_permR, Hl; exact Hk).
  destruct (smallest_k_lowset k v Hk) as (HS & HSl).
  destruct (smallest_k_lowset k (permR p v) Hk') as (HS' & HS'l).
  set (S := smallest_k RN k v) in *. set (S' := smallest_k RN k (permR p v)) in *.
  pose proof (lowset_permR _ v p S' eq_refl Hp HS') as HT. set (T := map _ S') in HT.
  assert (HTS : length T = length S) by (unfold T; rewrite map_length, HSl; exact HS'l).
  destruct HS' as (_ & HS'2 & _). rewrite length_permR, Hl in HS'2.
  intros a Ha. split.
  - intros Hin. apply (lowset_unique v T S Hd HT HS HTS).
    apply (in_map (fun a => nth a p 0%nat)). exact Hin.
  - intros Hin. apply (lowset_unique v S T Hd HS HT (eq_sym HTS)) in Hin.
    apply in_map_iff in Hin. destruct Hin as (b & E & Hb).
    rewrite <- (is_perm_nth_inj _ p b a Hp (HS'2 b Hb) Ha E). exact Hb.
Qed.

Theorem krum_weights_equivariant m D p f k : length D = m -> wfmat m D -> is_perm m p ->
  (k <= m)%nat -> distinct_on m (krum_scores RN D (m - f - 2)) ->
  krum_weights_of_dist RN (permM p D) f k = permR p (krum_weights_of_dist RN D f k).
Proof.
  intros HD Hwf Hp Hk Hd. unfold krum_weights_of_dist.
  rewrite length_permM, (is_perm_length m p Hp), HD, (krum_scores_perm m) by assumption.
  set (v := krum_scores RN D (m - f - 2)) in *.
  assert (Hv : length v = m) by (unfold v, krum_scores; rewrite map_length; exact HD).
  rewrite (permR_tab m) by exact Hp. apply map_ext_in. intros a Ha. apply in_seq in Ha.
  do 2 f_equal. apply count_occ_iff.
  - apply (smallest_k_lowset k v). rewrite Hv. exact Hk.
  - apply (smallest_k_lowset k (permR p v)). rewrite length_permR, (is_perm_length m p Hp). exact Hk.
  - apply (smallest_k_perm m v p k); auto. exact (proj2 Ha).
Qed.

Lemma Om_krum_perm m G p f k : length G = m -> is_perm m p ->
  distinct_on m (krum_scores RN (krum_distances RN G) (m - f - 2)) ->
  Om_krum f k (permM p G) = res_map (permR p) (Om_krum f k G).
Proof.
  intros HG Hp Hd. unfold Om_krum. rewrite length_permM, (is_perm_length m p Hp), HG.
  destruct (m <? f + 3)%nat; [reflexivity|]. destruct (m <? k)%nat eqn:Hk; [reflexivity|].
  apply Nat.ltb_ge in Hk. cbn [res_map]. f_equal. rewrite (krum_distances_perm m) by assumption.
  apply (krum_weights_equivariant m); auto.
  - rewrite length_krum_distances. exact HG.
  - rewrite <- HG. apply wfmat_krum_distances.
Qed.

Theorem agg_krum_perm n J p f k : wfmat n J -> is_perm (length J) p ->
  distinct_on (length J)
    (krum_scores RN (krum_distances RN (gramR J)) (length J - f - 2)) ->
  agg_krum RN f k (perm_rows p J) = agg_krum RN f k J.
Proof.
  intros HJ Hp Hd. rewrite !gf_krum, gram_perm_rows.
  rewrite (Om_krum_perm (length J)) by (auto using length_gram).
  apply (weighted_perm n); auto. intros w E. rewrite (length_Om_krum _ _ _ _ E). apply length_gram.
Qed.

Theorem agg_krum_Permutation n J J' f k : wfmat n J -> J <> [] -> Permutation J J' ->
  distinct_on (length J)
    (krum_scores RN (krum_distances RN (gramR J)) (length J - f - 2)) ->
  agg_krum RN f k J' = agg_krum RN f k J.
Proof.
  intros HJ _ HP Hd. apply (perm_rows_invariant (agg_krum RN f k) J J'); [|exact HP].
  intros p Hp. apply (agg_krum_perm n); assumption.
Qed.

(* the four Penrose equations, for m x m list matrices *)
Definition is_pinv (m : nat) (G P : list (list R)) : Prop :=
  mmulR m (mmulR m G P) G = G /\
  mmulR m (mmulR m P G) P = P /\
  transposeR m (mmulR m G P) = mmulR m G P /\
  transposeR m (mmulR m P G) = mmulR m P G.

Theorem is_pinv_perm m G P p : length G = m -> wfmat m G -> length P = m -> wfmat m P ->
  is_perm m p -> is_pinv m G P -> is_pinv m (permM p G) (permM p P).
Proof.
  intros HG HwG HP HwP Hp (E1 & E2 & E3 & E4).
  assert (HGP : length (mmulR m G P) = m) by (rewrite length_mmul; exact HG).
  assert (HPG : length (mmulR m P G) = m) by (rewrite length_mmul; exact HP).
  assert (HwGP : wfmat m (mmulR m G P)) by (apply wfmat_mmul; exact HwP).
  assert (HwPG : wfmat m (mmulR m P G)) by (apply wfmat_mmul; exact HwG).
  unfold is_pinv. rewrite !(mmul_permM m) by assumption.
  rewrite !(transpose_permM m) by assumption. rewrite E1, E2, E3, E4. repeat split; reflexivity.
Qed.

Theorem imtlg_weights_equivariant m G P p thr : length G = m -> length P = m -> wfmat m P ->
  is_perm m p ->
  imtlg_weights RN (permM p P) (permM p G) thr = permR p (imtlg_weights RN P G thr).
Proof.
  intros HG HP HwP Hp. pose proof (is_perm_length m p Hp) as Hl.
  rewrite !imtlg_weights_eq. cbv zeta. rewrite length_permM, Hl, HG.
  set (d := map (fun i => sqrt (mget RN G i i)) (seq 0 m)).
  assert (Hd : length d = m) by (unfold d; rewrite map_length; apply seq_length).
  assert (Ed : map (fun i => sqrt (mget RN (permM p G) i i)) (seq 0 m) = permR p d).
  { unfold d. rewrite (permR_tab m) by exact Hp. apply map_ext_in. intros a Ha. apply in_seq in Ha.
    rewrite mget_permM by lia. reflexivity. }
  rewrite Ed, (mv_permM m) by assumption.
  set (v := mvR P d).
  assert (Hv : length v = m) by (unfold v; rewrite length_mv; exact HP).
  rewrite !vsum_permR by (rewrite ?Hv, ?Hd; exact Hp).
  destruct (Rltb _ thr).
  - rewrite permR_vzero, length_permR. reflexivity.
  - symmetry. apply permR_vscale.
Qed.

Theorem agg_imtlg_perm n J P p thr : wfmat n J -> is_perm (length J) p ->
  length P = length J -> wfmat (length J) P ->
  agg_imtlg RN (permM p P) thr (perm_rows p J) = agg_imtlg RN P thr J.
Proof.
  intros HJ Hp HP HwP. unfold agg_imtlg. apply (gramian_form_perm n); auto.
  - rewrite length_imtlg_weights. exact HP.
  - rewrite gram_perm_rows. apply (imtlg_weights_equivariant (length J)); auto. apply length_gram.
Qed.

Corollary imtlg_pinv_perm n J P p thr : wfmat n J -> is_perm (length J) p ->
  length P = length J -> wfmat (length J) P -> is_pinv (length J) (gramR J) P ->
  is_pinv (length J) (gramR (perm_rows p J)) (permM p P) /\
  agg_imtlg RN (permM p P) thr (perm_rows p J) = agg_imtlg RN P thr J.
Proof.
  intros HJ Hp HP HwP Hpinv. split; [|apply (agg_imtlg_perm n); assumption].
  rewrite gram_perm_rows. apply is_pinv_perm; auto using length_gram, wfmat_gram.
Qed.

(* IMTL-G: some pseudo-inverse of the permuted Gramian gives the same aggregation *)
Theorem agg_imtlg_Permutation n J J' P thr : wfmat n J -> J <> [] -> Permutation J J' ->
  length P = length J -> wfmat (length J) P -> is_pinv (length J) (gramR J) P ->
  exists P', is_pinv (length J') (gramR J') P' /\ agg_imtlg RN P' thr J' = agg_imtlg RN P thr J.
Proof.
  intros HJ _ Hp HP HwP Hpinv. destruct (Permutation_perm_rows J J' Hp) as (p & Hpp & ->).
  exists (permM p P). rewrite length_perm_rows, (is_perm_length _ _ Hpp).
  apply (imtlg_pinv_perm n); assumption.
Qed.

Lemma combine_column : forall (leak : list R) (J : list (list R)) j,
  List.combine leak (column RN J j)
  = map (fun p : R * list R => (fst p, nth j (snd p) 0)) (List.combine leak J).
Proof.
  induction leak as [|l leak IH]; intros [|r J] j; try reflexivity.
  cbn [column List.combine map fst snd]. rewrite IH. reflexivity.
Qed.

(* GradDrop under a fixed draw U: the rows are permuted together with their leak entries; every
   coordinate is a symmetric function of the zipped (leak_i, J_ij) list, so no tie-freeness is needed *)
Theorem graddrop_coord_perm : forall leak leak' col col' u,
  length leak = length col -> length leak' = length col' ->
  Permutation (List.combine leak col) (List.combine leak' col') ->
  graddrop_coord RN leak' col' u = graddrop_coord RN leak col u.
Proof.
  intros leak leak' col col' u Hl Hl' Hp.
  assert (Hc : Permutation col col').
  { rewrite <- (map_snd_combine leak col Hl), <- (map_snd_combine leak' col' Hl').
    apply Permutation_map. exact Hp. }
  rewrite !graddrop_coord_masked. cbv zeta.
  rewrite <- (vsum_perm _ _ Hc), <- (vsum_perm _ _ (Permutation_map (Linalg.nabs RN) Hc)).
  apply masked_sum_perm. exact Hp.
Qed.

Lemma ncols_perm n (J J' : list (list R)) : wfmat n J -> Permutation J J' -> ncols J' = ncols J.
Proof.
  intros HJ HP. destruct J' as [|r' J'].
  - apply Permutation_sym, Permutation_nil in HP. subst J. reflexivity.
  - destruct J as [|r J]; [apply Permutation_nil in HP; discriminate|]. cbn [ncols].
    rewrite (wfmat_In n (r :: J) r' HJ), (wfmat_In n (r :: J) r HJ); [reflexivity|left; reflexivity|].
    apply (Permutation_in _ (Permutation_sym HP)). left. reflexivity.
Qed.

Theorem graddrop_Permutation : forall n J J' leak leak' U, wfmat n J ->
  length leak = length J -> length leak' = length J' ->
  Permutation (List.combine leak J) (List.combine leak' J') ->
  agg_graddrop RN (Some leak') U J' = agg_graddrop RN (Some leak) U J.
Proof.
  intros n J J' leak leak' U HJ Hl Hl' Hp.
  assert (HpJ : Permutation J J').
  { rewrite <- (map_snd_combine leak J Hl), <- (map_snd_combine leak' J' Hl').
    apply Permutation_map. exact Hp. }
  unfold agg_graddrop. cbv zeta.
  rewrite Hl, Hl', !Nat.eqb_refl. cbn [negb]. rewrite (ncols_perm n J J' HJ HpJ). f_equal.
  apply map_ext. intros [j u].
  apply graddrop_coord_perm; rewrite ?length_column; auto.
  rewrite !combine_column. apply Permutation_map. exact Hp.
Qed.

(* the default leak is all zero *)
Theorem graddrop_Permutation_noleak : forall n J J' U, wfmat n J -> Permutation J J' ->
  agg_graddrop RN None U J' = agg_graddrop RN None U J.
Proof.
  intros n J J' U HJ Hp.
  assert (E : forall K : list (list R),
    agg_graddrop RN None U K = agg_graddrop RN (Some (vzeroR (length K))) U K).
  { intros K. unfold agg_graddrop. cbv zeta. rewrite length_vzero, Nat.eqb_refl. reflexivity. }
  rewrite !E. apply (graddrop_Permutation n); auto using length_vzero.
  unfold vzero. rewrite !combine_repeat. apply Permutation_map. exact Hp.
Qed.

Theorem graddrop_zero_column : forall leak m u, length leak = m ->
  graddrop_coord RN leak (repeat 0 m) u = 0.
Proof.
  intros leak m u _. rewrite graddrop_coord_masked. apply masked_sum_zero_col.
Qed.

Theorem graddrop_column_local : forall leak U J, length leak = length J ->
  agg_graddrop RN (Some leak) U J
  = Ok (map (fun '(j, u) => graddrop_coord RN leak (column RN J j) u)
            (List.combine (seq 0 (ncols J)) U)).
Proof.
  intros leak U J H. unfold agg_graddrop. cbv zeta. rewrite H, Nat.eqb_refl. reflexivity.
Qed.

Print Assumptions gramian_form_perm.
Print Assumptions qf_perm.
Print Assumptions is_min_perm.
Print Assumptions is_min_perm_iff.
Print Assumptions reg_norm_gramian_perm.
Print Assumptions reg_min_perm_unique.
Print Assumptions dualproj_weights_equivariant.
Print Assumptions upgrad_weights_equivariant.
Print Assumptions agg_dualproj_perm.
Print Assumptions agg_upgrad_perm.
Print Assumptions smallest_k_perm.
Print Assumptions krum_weights_equivariant.
Print Assumptions agg_krum_perm.
Print Assumptions is_pinv_perm.
Print Assumptions imtlg_weights_equivariant.
Print Assumptions agg_imtlg_perm.
Print Assumptions imtlg_pinv_perm.
Print Assumptions Permutation_perm_rows.
Print Assumptions agg_krum_Permutation.
Print Assumptions agg_dualproj_Permutation.
Print Assumptions agg_upgrad_Permutation.
Print Assumptions agg_imtlg_Permutation.
Print Assumptions dualproj_oracle_hyps_satisfiable.
Print Assumptions graddrop_coord_perm.
Print Assumptions graddrop_Permutation.
Print Assumptions graddrop_Permutation_noleak.
Print Assumptions graddrop_zero_column.
Print Assumptions graddrop_column_local.
