(* Facts about lists that the standard library of Coq 8.16 lacks. *)
From Coq Require Import List Arith Lia.
Import ListNotations.

Lemma nth_map_lt {X Y} (f : X -> Y) (l : list X) r d d' :
  r < length l -> nth r (map f l) d = f (nth r l d').
Proof.
  intros H. rewrite nth_indep with (d' := f d') by (rewrite map_length; exact H).
  apply map_nth.
Qed.

Lemma nth_repeat_lt {X} (x d : X) m r : r < m -> nth r (repeat x m) d = x.
Proof.
  revert r; induction m as [|m IH]; intros r H; [lia|].
  destruct r as [|r]; cbn [repeat nth]; [reflexivity | apply IH; lia].
Qed.

Lemma map_repeat {X Y} (f : X -> Y) (x : X) n : map f (repeat x n) = repeat (f x) n.
Proof. induction n as [|n IH]; [reflexivity|]. cbn [repeat map]. rewrite IH. reflexivity. Qed.

Lemma map_const_in {A} (f : nat -> A) (c : A) p : (forall i, In i p -> f i = c) ->
  map f p = repeat c (length p).
Proof.
  induction p as [|i p IH]; intros H; [reflexivity|]. cbn [map length repeat].
  rewrite (H i (or_introl eq_refl)). f_equal. apply IH. intros j Hj. apply H. right; exact Hj.
Qed.

Lemma skipn_repeat {X} (x : X) k : forall c, skipn c (repeat x k) = repeat x (k - c).
Proof. induction k as [|k IH]; intros [|c]; try reflexivity. apply IH. Qed.

Lemma firstn_repeat {X} (x : X) k : forall a, firstn a (repeat x k) = repeat x (Nat.min a k).
Proof. induction k as [|k IH]; intros [|a]; try reflexivity. cbn. f_equal. apply IH. Qed.

Lemma map_nth_seq {X} (l : list X) (d : X) : map (fun r => nth r l d) (seq 0 (length l)) = l.
Proof.
  induction l as [|x l IH]; [reflexivity|].
  cbn [length seq map nth]. f_equal. rewrite <- seq_shift, map_map. exact IH.
Qed.

Lemma map_seq_nth_f {A B} (f : A -> B) (d : A) (l : list A) :
  map (fun a => f (nth a l d)) (seq 0 (length l)) = map f l.
Proof.
  transitivity (map f (map (fun a => nth a l d) (seq 0 (length l)))); [symmetry; apply map_map|].
  rewrite map_nth_seq. reflexivity.
Qed.

Lemma nth_map_seq {X} (f : nat -> X) (d : X) n r : r < n -> nth r (map f (seq 0 n)) d = f r.
Proof.
  intros H. rewrite (nth_map_lt f (seq 0 n) r d 0) by (rewrite seq_length; exact H).
  rewrite seq_nth by exact H. reflexivity.
Qed.

Lemma seq_shift_add a n : map (fun x => a + x) (seq 0 n) = seq a n.
Proof.
  revert a; induction n as [|n IH]; intros a; [reflexivity|].
  cbn [seq map]. f_equal; [lia|]. rewrite <- seq_shift, map_map.
  rewrite <- (IH (S a)). apply map_ext. intros x. lia.
Qed.

Lemma map_fst_combine {X Y} : forall (a : list X) (b : list Y),
  length a = length b -> map fst (combine a b) = a.
Proof.
  induction a as [|x a IH]; intros [|y b] H; cbn in H; try lia; [reflexivity|].
  cbn [combine map fst]. f_equal. apply IH. lia.
Qed.

Lemma map_snd_combine {X Y} : forall (a : list X) (b : list Y),
  length a = length b -> map snd (combine a b) = b.
Proof.
  induction a as [|x a IH]; intros [|y b] H; cbn in H; try lia; [reflexivity|].
  cbn [combine map snd]. f_equal. apply IH. lia.
Qed.

Lemma combine_map_l {A B C} (f : A -> C) (l : list A) (L : list B) :
  List.combine (map f l) L = map (fun p => (f (fst p), snd p)) (List.combine l L).
Proof.
  revert L. induction l as [|x l IH]; intros [|y L]; try reflexivity.
  cbn [map List.combine fst snd]. rewrite IH. reflexivity.
Qed.

Lemma combine_map_r {A B C} (f : B -> C) (l : list A) (c : list B) :
  List.combine l (map f c) = map (fun p => (fst p, f (snd p))) (List.combine l c).
Proof.
  revert c. induction l as [|x l IH]; intros [|y c]; try reflexivity.
  cbn [map List.combine fst snd]. rewrite IH. reflexivity.
Qed.

Lemma length_concat_map {X} (g : nat -> list X) (f : nat -> nat) (l : list nat) :
  (forall i, In i l -> length (g i) = f i) ->
  length (concat (map g l)) = fold_right Nat.add 0 (map f l).
Proof.
  induction l as [|x l IH]; intros H; [reflexivity|].
  cbn [map concat fold_right]. rewrite app_length, H by (left; reflexivity).
  rewrite IH; [reflexivity|]. intros i Hi. apply H. right. exact Hi.
Qed.

Lemma NoDup_app_l {X} (a b : list X) : NoDup (a ++ b) -> NoDup a.
Proof.
  induction a as [|x a IH]; intros H; [constructor|].
  cbn [app] in H. apply NoDup_cons_iff in H. destruct H as [Hx Hr]. constructor.
  - intros Hin. apply Hx. apply in_or_app. left. exact Hin.
  - apply IH. exact Hr.
Qed.

Lemma NoDup_app_r {X} (a b : list X) : NoDup (a ++ b) -> NoDup b.
Proof.
  induction a as [|x a IH]; intros H; [exact H|].
  cbn [app] in H. apply NoDup_cons_iff in H. apply IH. exact (proj2 H).
Qed.

Lemma In_firstn {X} k (l : list X) x : In x (firstn k l) -> In x l.
Proof. intros H. rewrite <- (firstn_skipn k l). apply in_or_app. left. exact H. Qed.

Lemma NoDup_firstn {X} k (l : list X) : NoDup l -> NoDup (firstn k l).
Proof. intros H. rewrite <- (firstn_skipn k l) in H. apply NoDup_app_l in H. exact H. Qed.

Lemma NoDup_map_inj_in {A B} (f : A -> B) (l : list A) :
  (forall x y, In x l -> In y l -> f x = f y -> x = y) -> NoDup l -> NoDup (map f l).
Proof.
  intros Hinj Hnd. induction Hnd as [|x l Hx Hnd IH]; cbn [map]; constructor.
  - intros Hin. apply in_map_iff in Hin. destruct Hin as (y & Hy & Hyl).
    assert (y = x) by (apply Hinj; [right; exact Hyl|left; reflexivity|exact Hy]). subst y. contradiction.
  - apply IH. intros a b Ha Hb. apply Hinj; right; assumption.
Qed.

Lemma exists_not_in (S T : list nat) i : NoDup T -> (length S <= length T)%nat ->
  In i S -> ~ In i T -> exists j, In j T /\ ~ In j S.
Proof.
  intros HT Hlen HiS HiT.
  destruct (Forall_Exists_dec (fun j => In j S) (fun j => in_dec Nat.eq_dec j S) T) as [F|E].
  - exfalso. apply HiT. apply (NoDup_length_incl HT Hlen); [|exact HiS].
    exact (proj1 (Forall_forall _ T) F).
  - apply Exists_exists in E. exact E.
Qed.

Lemma count_occ_iff (S S' : list nat) a b : NoDup S -> NoDup S' -> (In a S' <-> In b S) ->
  count_occ Nat.eq_dec S' a = count_occ Nat.eq_dec S b.
Proof.
  intros HS HS' Hiff. destruct (in_dec Nat.eq_dec a S') as [Ha|Ha].
  - rewrite NoDup_count_occ' in HS, HS'. rewrite (HS' a Ha), (HS b (proj1 Hiff Ha)). reflexivity.
  - assert (Hb : ~ In b S) by (intros X; apply Ha; apply Hiff; exact X).
    apply (count_occ_not_In Nat.eq_dec) in Ha, Hb. rewrite Ha, Hb. reflexivity.
Qed.

Lemma forallb_Forall_true {X} (f : X -> bool) l : forallb f l = true -> Forall (fun x => f x = true) l.
Proof. intros H. apply Forall_forall. apply forallb_forall. exact H. Qed.

Lemma Forall2_map {X A B} (P : A -> B -> Prop) (f : X -> A) (g : X -> B) l :
  (forall x, In x l -> P (f x) (g x)) -> Forall2 P (map f l) (map g l).
Proof.
  induction l as [|x l IH]; intros H; cbn [map]; constructor.
  - apply H. left. reflexivity.
  - apply IH. intros y Hy. apply H. right. exact Hy.
Qed.

Lemma Forall2_Forall_r {A B} (R : A -> B -> Prop) (P : B -> Prop) la lb :
  (forall a b, R a b -> P b) -> Forall2 R la lb -> Forall P lb.
Proof. intros H. induction 1 as [|a b la lb Hab _ IH]; constructor; [exact (H a b Hab) | exact IH]. Qed.

Lemma Forall2_cons_inv {X Y} (R : X -> Y -> Prop) x l y l' :
  Forall2 R (x :: l) (y :: l') -> R x y /\ Forall2 R l l'.
Proof. intros H. inversion H. split; assumption. Qed.

Lemma lt_length_nonnil {X} (l : list X) i : i < length l -> l <> [].
Proof. intros H ->. exact (Nat.nlt_0_r i H). Qed.

Lemma length_nonnil {X} (l : list X) : l <> [] -> (1 <= length l)%nat.
Proof. destruct l; [congruence | intros _; apply le_n_S, Nat.le_0_l]. Qed.

Lemma nonnil_same_length {X Y} (l : list X) (l' : list Y) : length l = length l' -> l' <> [] -> l <> [].
Proof. intros H Hne ->. apply Hne, length_zero_iff_nil. symmetry. exact H. Qed.

Lemma filter_all {A} (f : A -> bool) (l : list A) : (forall x, In x l -> f x = true) -> filter f l = l.
Proof.
  induction l as [|x l IH]; intros H; [reflexivity|]. cbn [filter].
  rewrite (H x) by (left; reflexivity). f_equal. apply IH. intros y Hy. apply H. right. exact Hy.
Qed.

Lemma last_In {A} (l : list A) d : l <> [] -> In (last l d) l.
Proof.
  induction l as [|x l IH]; intros H; [congruence|].
  destruct l as [|y l]; [left; reflexivity|]. right. apply IH. discriminate.
Qed.

Lemma nth_split_at {A} (d : A) (l : list A) : forall i, (i < length l)%nat ->
  l = firstn i l ++ nth i l d :: skipn (S i) l.
Proof.
  induction l as [|x l IH]; intros i H; cbn in H; [lia|].
  destruct i as [|i]; [reflexivity|]. cbn [firstn nth skipn app]. f_equal. apply IH. lia.
Qed.
