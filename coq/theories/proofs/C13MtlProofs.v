(* Property C13, the clause for mtl_backward with retain_graph=False: "heads that share no graph
   node besides the features".

   mtl_backward issues one engine run per task (loss_i -> task params_i ++ features), then the
   chunked runs of the trunk (features -> shared params); with retain_graph=False a run frees the
   saved nodes it executes.  The SIDE CONDITION [heads_separate] is stated purely on the saved-node
   sets of these runs: they are pairwise disjoint, disjoint from the trunk's set, nothing of them is
   freed in the state in which the call is made, and every tensor involved requires grad.  It
   implies the engine condition ([engine_ok] of C13Proofs.v) for both flags and is equivalent to it
   for retain_graph=False; under the argument checks and an accepting aggregator the engine
   condition is exactly what decides acceptance.

   The engine-level part is generic in the number type (section C13MtlGen); the acceptance
   theorems are over R (section C13Mtl) because AcceptProofs.v is. *)
From Coq Require Import Reals List Bool Arith.
From TJ Require Import Num NumR Autojac.
From TJ.proofs Require Import AutojacBasics AutojacSpec EntrySpec C20Proofs C13Proofs AcceptProofs.
Import ListNotations.

Definition disjoint (a b : list nid) : Prop := forall n, In n a -> ~ In n b.

Section C13MtlGen.
Context {T : Type} (N : Num T) (P : prog T) (A : list (list T) -> res (list T)).

Lemma sweep_ok_iff : forall (fr : list nid) outs ins,
  sweep_ok_fr P fr outs ins = true <->
  forallb (p_req P) outs = true /\ forallb (p_req P) ins = true /\
  disjoint (saved_exec P outs ins) fr.
Proof.
  intros fr outs ins. unfold sweep_ok_fr. split.
  - intros H. apply andb_true_iff in H. destruct H as [H H3].
    apply andb_true_iff in H. destruct H as [H1 H2]. split; [exact H1|]. split; [exact H2|].
    intros x Hx Hfr. apply negb_true_iff, not_true_iff_false in H3. apply H3, existsb_exists.
    exists x. split; [exact Hx | apply mem_In; exact Hfr].
  - intros (H1 & H2 & H3). rewrite H1, H2. apply negb_true_iff, not_true_is_false.
    intros E. apply existsb_exists in E. destruct E as (x & Hx & Hm).
    exact (H3 x Hx (proj1 (mem_In _ _) Hm)).
Qed.

Lemma separate_heads_ok : forall features retain (tl : list (list tid * tid)) fr,
  (forall pl, In pl tl ->
      forallb (p_req P) [snd pl] = true /\ forallb (p_req P) (fst pl ++ features) = true) ->
  (forall pl, In pl tl -> disjoint (saved_exec P [snd pl] (fst pl ++ features)) fr) ->
  (forall i j pli plj, i <> j -> nth_error tl i = Some pli -> nth_error tl j = Some plj ->
      disjoint (saved_exec P [snd pli] (fst pli ++ features))
               (saved_exec P [snd plj] (fst plj ++ features))) ->
  heads_ok P features retain fr tl.
Proof.
  intros features retain tl. induction tl as [|pl tl IH]; intros fr Hreq Hfr Hpair;
    cbn [heads_ok]; [exact I|]. split.
  - apply sweep_ok_iff. destruct (Hreq pl (or_introl eq_refl)) as [R1 R2].
    split; [exact R1|]. split; [exact R2 | exact (Hfr pl (or_introl eq_refl))].
  - apply IH.
    + intros pl' Hin. exact (Hreq pl' (or_intror Hin)).
    + intros pl' Hin x Hx Hm. unfold fstep in Hm.
      destruct retain; [exact (Hfr pl' (or_intror Hin) x Hx Hm)|].
      apply in_app_iff in Hm. destruct Hm as [Hm|Hm]; [exact (Hfr pl' (or_intror Hin) x Hx Hm)|].
      destruct (In_nth_error _ _ Hin) as [j Ej].
      exact (Hpair (S j) O pl' pl (Nat.neq_succ_0 j) Ej eq_refl x Hx Hm).
    + intros i j pli plj Hne Ei Ej.
      exact (Hpair (S i) (S j) pli plj (fun E => Hne (eq_add_S _ _ E)) Ei Ej).
Qed.

Lemma heads_ok_false_inv : forall features (tl : list (list tid * tid)) fr,
  heads_ok P features false fr tl ->
  forall j plj, nth_error tl j = Some plj ->
  forallb (p_req P) [snd plj] = true /\ forallb (p_req P) (fst plj ++ features) = true /\
  disjoint (saved_exec P [snd plj] (fst plj ++ features)) fr /\
  forall i pli, (i < j)%nat -> nth_error tl i = Some pli ->
    disjoint (saved_exec P [snd plj] (fst plj ++ features))
             (saved_exec P [snd pli] (fst pli ++ features)).
Proof.
  intros features tl. induction tl as [|pl tl IH]; intros fr Hh j plj Ej.
  - destruct j; discriminate Ej.
  - destruct Hh as [Hok Hh]. destruct j as [|j].
    + injection Ej as <-. apply sweep_ok_iff in Hok. destruct Hok as (R1 & R2 & Hd).
      split; [exact R1|]. split; [exact R2|]. split; [exact Hd|].
      intros i pli Hi. destruct (Nat.nlt_0_r _ Hi).
    + destruct (IH _ Hh j plj Ej) as (R1 & R2 & Hd & Hlt). unfold fstep in Hd.
      split; [exact R1|]. split; [exact R2|]. split.
      * intros x Hx Hfr. apply (Hd x Hx), in_app_iff. left. exact Hfr.
      * intros [|i] pli Hi Ei.
        -- injection Ei as <-. intros x Hx Hxi. apply (Hd x Hx), in_app_iff. right. exact Hxi.
        -- exact (Hlt i pli (proj2 (Nat.succ_lt_mono _ _) Hi) Ei).
Qed.

(* THE SIDE CONDITION: heads that share no graph node besides the features *)
Definition heads_separate (s : @store T) (losses features : list tid) (tasks : list (list tid))
           (shared : list tid) : Prop :=
  let sets := map (fun pl => saved_exec P [snd pl] (fst pl ++ features)) (combine tasks losses) in
  (forall pl, In pl (combine tasks losses) ->
      forallb (p_req P) [snd pl] = true /\ forallb (p_req P) (fst pl ++ features) = true) /\
  forallb (p_req P) features = true /\ forallb (p_req P) shared = true /\
  (forall S, In S sets -> disjoint S (s_freed s)) /\
  disjoint (saved_exec P features shared) (s_freed s) /\
  (forall i j Si Sj, i <> j -> nth_error sets i = Some Si -> nth_error sets j = Some Sj ->
      disjoint Si Sj) /\
  (forall S, In S sets -> disjoint S (saved_exec P features shared)).

Lemma heads_separate_engine_ok_gen : forall retain s losses features tasks shared,
  heads_separate s losses features tasks shared ->
  engine_ok P features retain (s_freed s) (combine tasks losses) shared.
Proof.
  intros retain s losses features tasks shared HS.
  destruct HS as (Hreq & Hrf & Hrs & Hfr & Hfrt & Hpair & Htr). split.
  - apply separate_heads_ok.
    + exact Hreq.
    + intros pl Hin. exact (Hfr _ (in_map _ _ _ Hin)).
    + intros i j pli plj Hne Ei Ej.
      exact (Hpair i j _ _ Hne (map_nth_error _ i _ Ei) (map_nth_error _ j _ Ej)).
  - apply sweep_ok_iff. split; [exact Hrf|]. split; [exact Hrs|]. rewrite fold_fstep.
    intros x Hx Hm. destruct retain; [exact (Hfrt x Hx Hm)|].
    apply in_app_iff in Hm. destruct Hm as [Hm|Hm]; [exact (Hfrt x Hx Hm)|].
    apply in_concat in Hm. destruct Hm as (S0 & HS & Hx0). exact (Htr S0 HS x Hx0 Hx).
Qed.

Lemma engine_ok_false_heads_separate_gen : forall s losses features tasks shared,
  engine_ok P features false (s_freed s) (combine tasks losses) shared ->
  heads_separate s losses features tasks shared.
Proof.
  intros s losses features tasks shared [Hh Htrunk].
  unfold heads_separate. cbv zeta.
  set (tl := combine tasks losses) in *.
  set (f := fun pl : list tid * tid => saved_exec P [snd pl] (fst pl ++ features)).
  rewrite fold_fstep in Htrunk. apply sweep_ok_iff in Htrunk. destruct Htrunk as (Hrf & Hrs & Hdt).
  pose proof (heads_ok_false_inv features tl _ Hh) as Hhead.
  refine (conj _ (conj Hrf (conj Hrs (conj _ (conj _ (conj _ _)))))).
  - intros pl Hin. apply In_nth_error in Hin. destruct Hin as [n En].
    destruct (Hhead n pl En) as (H1 & H2 & _). split; assumption.
  - intros S HS. apply in_map_iff in HS. destruct HS as (pl & <- & Hin).
    apply In_nth_error in Hin. destruct Hin as [n En].
    exact (proj1 (proj2 (proj2 (Hhead n pl En)))).
  - intros x Hx Hfr. apply (Hdt x Hx), in_app_iff. left. exact Hfr.
  - assert (Hlt : forall i j Si Sj, (i < j)%nat -> nth_error (map f tl) i = Some Si ->
                    nth_error (map f tl) j = Some Sj -> disjoint Sj Si).
    { intros i j Si Sj Hij Ei Ej. rewrite nth_error_map in Ei, Ej.
      destruct (nth_error tl i) as [pli|] eqn:Eti; [|discriminate Ei].
      destruct (nth_error tl j) as [plj|] eqn:Etj; [|discriminate Ej].
      injection Ei as <-. injection Ej as <-.
      exact (proj2 (proj2 (proj2 (Hhead j plj Etj))) i pli Hij Eti). }
    intros i j Si Sj Hne Ei Ej.
    destruct (proj1 (Nat.lt_gt_cases i j) Hne) as [Hij|Hji].
    + intros x Hxi Hxj. exact (Hlt i j Si Sj Hij Ei Ej x Hxj Hxi).
    + exact (Hlt j i Sj Si Hji Ej Ei).
  - intros S HS x Hx Hxt. apply (Hdt x Hxt), in_app_iff. right.
    apply in_concat. exists S. split; [exact HS | exact Hx].
Qed.

Lemma shared_saved_node_sweep_fails : forall (s : @store T) features ps1 l1 ps2 l2 n,
  In n (saved_exec P [l1] (ps1 ++ features)) ->
  In n (saved_exec P [l2] (ps2 ++ features)) ->
  sweep_ok P (mkStore (s_grads s) (s_freed s ++ saved_exec P [l1] (ps1 ++ features))
                      (s_log s) (s_next s)) [l2] (ps2 ++ features) = false.
Proof.
  intros s features ps1 l1 ps2 l2 n H1 H2.
  apply not_true_is_false. intros E.
  apply (sweep_ok_iff (s_freed s ++ saved_exec P [l1] (ps1 ++ features))) in E.
  apply (proj2 (proj2 E) n H2), in_app_iff. right. exact H1.
Qed.

Lemma mtl_ok_engine_ok_gen : forall losses features tasks shared k retain s d' s',
  shared <> [] ->
  mtl_backward_model N P A losses features tasks shared k retain s = (Ok d', s') ->
  engine_ok P features retain (s_freed s) (combine tasks losses) shared.
Proof.
  intros losses features tasks shared k retain s d' s' Hsh H.
  exact (proj1 (mtl_run_engine N P A _ _ _ _ _ _ _ _ _ Hsh H)).
Qed.

Lemma mtl_ok_heads_separate : forall losses features tasks shared k s d' s',
  shared <> [] ->
  mtl_backward_model N P A losses features tasks shared k false s = (Ok d', s') ->
  heads_separate s losses features tasks shared.
Proof.
  intros losses features tasks shared k s d' s' Hsh H.
  exact (engine_ok_false_heads_separate_gen _ _ _ _ _ (mtl_ok_engine_ok_gen _ _ _ _ _ _ _ _ _ Hsh H)).
Qed.

Lemma shared_saved_node_fails_gen : forall losses features tasks shared k s i j pli plj n,
  shared <> [] -> i <> j ->
  nth_error (combine tasks losses) i = Some pli ->
  nth_error (combine tasks losses) j = Some plj ->
  In n (saved_exec P [snd pli] (fst pli ++ features)) ->
  In n (saved_exec P [snd plj] (fst plj ++ features)) ->
  forall d' s', mtl_backward_model N P A losses features tasks shared k false s <> (Ok d', s').
Proof.
  intros losses features tasks shared k s i j pli plj n Hsh Hne Ei Ej Hi Hj d' s' H.
  apply mtl_ok_heads_separate in H; [|exact Hsh].
  destruct H as (_ & _ & _ & _ & _ & Hpair & _).
  exact (Hpair i j _ _ Hne
           (map_nth_error (fun pl => saved_exec P [snd pl] (fst pl ++ features)) i _ Ei)
           (map_nth_error (fun pl => saved_exec P [snd pl] (fst pl ++ features)) j _ Ej)
           n Hi Hj).
Qed.

End C13MtlGen.

Section C13Mtl.
Variable P : prog R.
Variable A : list (list R) -> res (list R).

Lemma heads_separate_engine_ok : forall retain s losses features tasks shared,
  heads_separate P s losses features tasks shared ->
  mtl_engine_ok_at P retain s losses features tasks shared.
Proof.
  intros retain s losses features tasks shared HS.
  apply mtl_engine_ok_at_heads, heads_separate_engine_ok_gen. exact HS.
Qed.

Lemma engine_ok_false_heads_separate : forall s losses features tasks shared,
  mtl_engine_ok_at P false s losses features tasks shared ->
  heads_separate P s losses features tasks shared.
Proof.
  intros s losses features tasks shared H.
  apply engine_ok_false_heads_separate_gen, mtl_engine_ok_at_heads. exact H.
Qed.

(* with separate heads no engine run of the call is refused for what an earlier run of the same
   call freed: the call is accepted, for either value of the flag *)
Theorem mtl_no_self_sabotage : forall losses features tasks shared k retain s v,
  wf_prog P -> shared <> [] ->
  mtl_args_ok P losses features tasks shared k retain = true ->
  heads_separate P s losses features tasks shared ->
  A (mtl_matrix P features shared losses) = Ok v -> length v = total P shared ->
  exists d' s', mtl_backward_model RN P A losses features tasks shared k retain s = (Ok d', s').
Proof.
  intros losses features tasks shared k retain s v Hwf Hsh Hargs HS HA Hlen.
  apply (mtl_accepts_at P A losses features tasks shared k retain s v); try assumption.
  apply heads_separate_engine_ok. exact HS.
Qed.

Lemma mtl_ok_engine_ok : forall losses features tasks shared k retain s d' s',
  shared <> [] ->
  mtl_backward_model RN P A losses features tasks shared k retain s = (Ok d', s') ->
  mtl_engine_ok_at P retain s losses features tasks shared.
Proof.
  intros losses features tasks shared k retain s d' s' Hsh H.
  apply mtl_engine_ok_at_heads. exact (mtl_ok_engine_ok_gen RN P A _ _ _ _ _ _ _ _ _ Hsh H).
Qed.

(* under the argument checks and an accepting aggregator, the engine condition is exactly what
   decides acceptance, for either flag *)
Theorem mtl_accepted_iff : forall losses features tasks shared k retain s v,
  wf_prog P -> shared <> [] ->
  mtl_args_ok P losses features tasks shared k retain = true ->
  A (mtl_matrix P features shared losses) = Ok v -> length v = total P shared ->
  ((exists d' s', mtl_backward_model RN P A losses features tasks shared k retain s = (Ok d', s'))
   <-> mtl_engine_ok_at P retain s losses features tasks shared).
Proof.
  intros losses features tasks shared k retain s v Hwf Hsh Hargs HA Hlen. split.
  - intros (d' & s' & H). exact (mtl_ok_engine_ok _ _ _ _ _ _ _ _ _ Hsh H).
  - intros He. exact (mtl_accepts_at P A _ _ _ _ _ _ _ v Hwf Hsh Hargs He HA Hlen).
Qed.

Lemma shared_saved_node_fails : forall losses features tasks shared k s i j pli plj n,
  shared <> [] -> i <> j ->
  nth_error (combine tasks losses) i = Some pli ->
  nth_error (combine tasks losses) j = Some plj ->
  In n (saved_exec P [snd pli] (fst pli ++ features)) ->
  In n (saved_exec P [snd plj] (fst plj ++ features)) ->
  forall d' s', mtl_backward_model RN P A losses features tasks shared k false s <> (Ok d', s').
Proof. exact (shared_saved_node_fails_gen RN P A). Qed.

Lemma task_run_sweep_fail : forall features ps loss retain s,
  features <> [] ->
  sweep_ok P s [loss] (ps ++ features) = false ->
  run RN P A (task_transform features ps loss retain) s empty_dict = (Err RuntimeError, s).
Proof.
  intros features ps loss retain s Hfe Hok. unfold task_transform. cbv zeta.
  apply (run_comp_fail RN P A); [reflexivity|].
  rewrite (run_comp_ok RN P A _ _ _ _ _ _ (fwd_run_init P A [loss] s empty_dict eq_refl)).
  rewrite (run_eq RN P A). cbn [required_keys run_body].
  rewrite dkeys_items, set_eqb_refl, grad_compute_eq, Hok; [reflexivity | discriminate |].
  intros E. apply app_eq_nil in E. exact (Hfe (proj2 E)).
Qed.

Lemma tasks_run_head_fail : forall features retain (tl : list (list tid * tid)),
  features <> [] ->
  (forall ps l, In (ps, l) tl -> NoDup (ps ++ features) /\ expects_all P ps = true) ->
  forall s, ~ heads_ok P features retain (s_freed s) tl ->
  exists s1,
    run_list RN P A empty_dict
      (map (fun pl => task_transform features (fst pl) (snd pl) retain) tl) s
    = (Err RuntimeError, s1).
Proof.
  intros features retain tl Hfe. induction tl as [|[ps l] tl IH]; intros Hall s Hbad.
  - destruct (Hbad I).
  - cbn [map fst snd]. rewrite (run_list_cons RN P A).
    destruct (sweep_ok P s [l] (ps ++ features)) eqn:Hok.
    + destruct (Hall ps l (or_introl eq_refl)) as [Hnd Hex].
      destruct (fwd_task_run P A features ps l retain s Hfe Hnd Hex Hok) as (dt & st & Ht).
      rewrite Ht.
      destruct (IH (fun ps' l' Hin => Hall ps' l' (or_intror Hin)) st) as (s1 & ->).
      * rewrite (task_run_freed RN P A _ _ _ _ _ _ _ _ Hfe Ht). intros Hh.
        exact (Hbad (conj Hok Hh)).
      * exists s1. reflexivity.
    + rewrite (task_run_sweep_fail features ps l retain s Hfe Hok). exists s. reflexivity.
Qed.

Lemma mtl_head_fail_runtime_error : forall losses features tasks shared k retain s,
  mtl_args_ok P losses features tasks shared k retain = true ->
  ~ heads_ok P features retain (s_freed s) (combine tasks losses) ->
  exists s1, mtl_backward_model RN P A losses features tasks shared k retain s = (Err RuntimeError, s1).
Proof.
  intros losses features tasks shared k retain s Hargs Hbad.
  rewrite (mtl_backward_model_eq RN P A), Hargs.
  destruct (mtl_args_ok_spec P _ _ _ _ _ _ Hargs) as (_ & Hfe & _ & _ & _ & _ & Hexp & _ & _ & Hnt).
  destruct (tasks_run_head_fail features retain (combine tasks losses) Hfe) with (s := s)
    as (s1 & Hl); [|exact Hbad|].
  { intros ps l Hin. split; [exact (Hnt ps l Hin)|]. apply forallb_forall. intros q Hq.
    apply Hexp, in_app_iff. right. apply in_concat. exists ps.
    split; [exact (in_combine_l _ _ _ _ Hin) | exact Hq]. }
  exists s1.
  assert (Hreq : set_eqb (dkeys (@empty_dict R))
                   (required_keys (TStack (map (fun pl => task_transform features (fst pl) (snd pl) retain)
                                               (combine tasks losses)))) = true).
  { cbn [required_keys]. rewrite tasks_required_nil. reflexivity. }
  unfold mtl_transform.
  apply (run_comp_fail RN P A); [exact Hreq|].
  apply (run_comp_fail RN P A); [exact Hreq|].
  apply (run_comp_fail RN P A); [exact Hreq|].
  rewrite (run_stack_eq RN P A), Hreq, Hl. reflexivity.
Qed.

(* THE LIMIT, exactly: the argument checks pass, two heads share a saved node, retain_graph=False
   ==> mtl_backward raises RuntimeError *)
Theorem shared_saved_node_runtime_error : forall losses features tasks shared k s i j pli plj n,
  mtl_args_ok P losses features tasks shared k false = true ->
  (i < j)%nat ->
  nth_error (combine tasks losses) i = Some pli ->
  nth_error (combine tasks losses) j = Some plj ->
  In n (saved_exec P [snd pli] (fst pli ++ features)) ->
  In n (saved_exec P [snd plj] (fst plj ++ features)) ->
  exists s1, mtl_backward_model RN P A losses features tasks shared k false s = (Err RuntimeError, s1).
Proof.
  intros losses features tasks shared k s i j pli plj n Hargs Hij Ei Ej Hi Hj.
  apply (mtl_head_fail_runtime_error _ _ _ _ _ _ _ Hargs). intros Hh.
  exact (proj2 (proj2 (proj2 (heads_ok_false_inv P _ _ _ Hh j plj Ej))) i pli Hij Ei n Hj Hi).
Qed.

Corollary two_heads_shared_node_runtime_error : forall features ps1 l1 ps2 l2 shared k s n,
  mtl_args_ok P [l1; l2] features [ps1; ps2] shared k false = true ->
  In n (saved_exec P [l1] (ps1 ++ features)) ->
  In n (saved_exec P [l2] (ps2 ++ features)) ->
  exists s1, mtl_backward_model RN P A [l1; l2] features [ps1; ps2] shared k false s
             = (Err RuntimeError, s1).
Proof.
  intros features ps1 l1 ps2 l2 shared k s n Hargs H1 H2.
  apply (shared_saved_node_runtime_error [l1; l2] features [ps1; ps2] shared k s 0 1
           (ps1, l1) (ps2, l2) n Hargs); [exact Nat.lt_0_1 | reflexivity | reflexivity | exact H1 | exact H2].
Qed.

(* with retain_graph=False the side condition is exactly what decides acceptance *)
Theorem mtl_retain_false_iff : forall losses features tasks shared k s v,
  wf_prog P -> shared <> [] ->
  mtl_args_ok P losses features tasks shared k false = true ->
  A (mtl_matrix P features shared losses) = Ok v -> length v = total P shared ->
  ((exists d' s', mtl_backward_model RN P A losses features tasks shared k false s = (Ok d', s'))
   <-> heads_separate P s losses features tasks shared).
Proof.
  intros losses features tasks shared k s v Hwf Hsh Hargs HA Hlen.
  rewrite (mtl_accepted_iff _ _ _ _ _ _ s v Hwf Hsh Hargs HA Hlen).
  split; [apply engine_ok_false_heads_separate | apply heads_separate_engine_ok].
Qed.

End C13Mtl.

Print Assumptions heads_separate_engine_ok_gen.
Print Assumptions engine_ok_false_heads_separate_gen.
Print Assumptions shared_saved_node_sweep_fails.
Print Assumptions mtl_ok_engine_ok_gen.
Print Assumptions shared_saved_node_fails_gen.
Print Assumptions heads_separate_engine_ok.
Print Assumptions mtl_no_self_sabotage.
Print Assumptions mtl_ok_heads_separate.
Print Assumptions shared_saved_node_fails.
Print Assumptions mtl_retain_false_iff.
Print Assumptions mtl_head_fail_runtime_error.
Print Assumptions shared_saved_node_runtime_error.
Print Assumptions two_heads_shared_node_runtime_error.
