(* Krum is translation-invariant in its distances and weights: adding the same vector v to every
   row of J leaves the pairwise distances (hence the scores, the selection and the weights)
   unchanged; the aggregate is translated by v. *)
From Coq Require Import Reals List Lia Lra.
From TJ Require Import Num Linalg NumR Agg.
From TJ.proofs Require Import LinalgR C16Proofs EquivarianceProofs.
Import ListNotations.
Local Open Scope R_scope.

Definition translate (v : list R) (J : list (list R)) : list (list R) := map (fun r => vadd RN r v) J.

Lemma length_translate v J : length (translate v J) = length J.
Proof. apply map_length. Qed.

Lemma nth_translate v J i : (i < length J)%nat ->
  nth i (translate v J) [] = vaddR (nth i J []) v.
Proof. apply (nth_map_lt (fun r => vaddR r v)). Qed.

Lemma wfmat_translate n v J : wfmat n J -> length v = n -> wfmat n (translate v J).
Proof.
  intros HJ Hv. apply wfmat_map. intros r Hr. pose proof (wfmat_In n J r HJ Hr) as Hlr.
  rewrite length_vadd; congruence.
Qed.

Lemma sqdist_translate a b v : length a = length v -> length b = length v ->
  dotR (vaddR a v) (vaddR a v) + dotR (vaddR b v) (vaddR b v) - 2 * dotR (vaddR a v) (vaddR b v) =
  dotR a a + dotR b b - 2 * dotR a b.
Proof.
  intros Ha Hb.
  rewrite !dot_vadd_l by assumption.
  rewrite !dot_vadd_r by assumption.
  rewrite (dot_comm v a), (dot_comm v b). lra.
Qed.

Lemma krum_dist_translate J v n i j : wfmat n J -> length v = n ->
  (i < length J)%nat -> (j < length J)%nat ->
  krum_dist RN (gramR (translate v J)) i j = krum_dist RN (gramR J) i j.
Proof.
  intros HJ Hv Hi Hj. unfold krum_dist. rewrite !mget_gram.
  rewrite !nth_translate by assumption.
  pose proof (wfmat_nth n J i HJ Hi) as Hli. pose proof (wfmat_nth n J j HJ Hj) as Hlj.
  rn. f_equal. change (INR 2) with 2.
  apply sqdist_translate; congruence.
Qed.

Theorem krum_distances_translate : forall (J : list (list R)) (v : list R) (n : nat),
  wfmat n J -> length v = n ->
  krum_distances RN (gram RN (translate v J)) = krum_distances RN (gram RN J).
Proof.
  intros J v n HJ Hv. unfold krum_distances.
  rewrite !length_gram, length_translate.
  apply map_ext_in. intros i Hi. apply in_seq in Hi.
  apply map_ext_in. intros j Hj. apply in_seq in Hj.
  apply (krum_dist_translate J v n); auto; lia.
Qed.

Theorem krum_weights_translate : forall J v n f k,
  wfmat n J -> length v = n ->
  krum_weights_of_dist RN (krum_distances RN (gram RN (translate v J))) f k =
  krum_weights_of_dist RN (krum_distances RN (gram RN J)) f k.
Proof.
  intros J v n f k HJ Hv. rewrite (krum_distances_translate J v n HJ Hv). reflexivity.
Qed.

Lemma vsum_map_div {A} (g : A -> R) c (l : list A) :
  vsumR (map (fun i => g i / c) l) = vsumR (map g l) / c.
Proof.
  rewrite <- (map_map g (fun x => x / c)), map_div_vscale, vsum_vscale. unfold Rdiv. ring.
Qed.

Lemma vsum_map_plus {A} (g h : A -> R) (l : list A) :
  vsumR (map (fun i => g i + h i) l) = vsumR (map g l) + vsumR (map h l).
Proof.
  induction l as [|x l IH]; cbn [map]; [cbn; lra|].
  rewrite !vsum_cons, IH. lra.
Qed.

Lemma vsum_indicator a l :
  vsumR (map (fun i => if Nat.eq_dec a i then 1 else 0) l) = INR (count_occ Nat.eq_dec l a).
Proof.
  induction l as [|x l IH]; [reflexivity|]. cbn [map count_occ]. rewrite vsum_cons, IH.
  destruct (Nat.eq_dec a x) as [E|E], (Nat.eq_dec x a) as [E'|E']; try congruence;
    [rewrite S_INR|]; lra.
Qed.

Lemma vsum_count_occ (sel l : list nat) : NoDup l -> (forall i, In i sel -> In i l) ->
  vsumR (map (fun i => INR (count_occ Nat.eq_dec sel i)) l) = INR (length sel).
Proof.
  intros Hnd. induction sel as [|a sel IH]; intros Hin.
  - cbn [count_occ length INR]. rewrite (map_const_in _ 0 l (fun _ _ => eq_refl)), vsum_repeat.
    apply Rmult_0_r.
  - rewrite (map_ext _ (fun i => (if Nat.eq_dec a i then 1 else 0) +
                                 INR (count_occ Nat.eq_dec sel i))).
    + rewrite vsum_map_plus, vsum_indicator, IH by (intros i Hi; apply Hin; right; exact Hi).
      rewrite NoDup_count_occ' in Hnd. rewrite (Hnd a) by (apply Hin; left; reflexivity).
      cbn [length]. rewrite !S_INR. cbn [INR]. lra.
    + intros i. cbn [count_occ]. destruct (Nat.eq_dec a i); [rewrite S_INR|]; lra.
Qed.

Lemma krum_weights_sum D f k : (1 <= k)%nat -> (k <= length D)%nat ->
  vsumR (krum_weights_of_dist RN D f k) = 1.
Proof.
  intros Hk Hkm. unfold krum_weights_of_dist.
  set (m := length D). set (v := krum_scores RN D (m - f - 2)).
  assert (Hv : length v = m) by (unfold v, krum_scores; apply map_length).
  destruct (smallest_k_spec k v ltac:(lia)) as (_ & Hlen & Hlt & _).
  set (sel := smallest_k RN k v) in *. rn.
  rewrite (vsum_map_div (fun i => INR (count_occ Nat.eq_dec sel i)) (INR k)).
  rewrite vsum_count_occ.
  - rewrite Hlen. apply Rinv_r. apply not_0_INR. lia.
  - apply seq_NoDup.
  - intros i Hi. apply in_seq. specialize (Hlt i Hi). lia.
Qed.

(* w . (J + 1 v^T) = w . J + (sum w) v : the aggregate is translated by v because the Krum weights
   sum to 1 *)
Lemma vm_translate n v : length v = n -> forall w J, wfmat n J -> length w = length J ->
  vmR n w (translate v J) = vaddR (vmR n w J) (vscaleR (vsumR w) v).
Proof.
  intros Hv. induction w as [|x w IH]; intros [|r J] HJ Hl; cbn in Hl; try lia.
  - cbn [translate map vm vsum fold_right]. rn. rewrite vscale_zero, Hv. symmetry. apply vadd_vzero_vzero.
  - apply Forall_cons_iff in HJ. destruct HJ as [Hr HJ].
    cbn [translate map vm]. fold (translate v J). rewrite IH by (auto; lia).
    rewrite vsum_cons, vscale_vadd, vscale_plus, <- !vadd_assoc, (vadd_swap (vscaleR x v)).
    reflexivity.
Qed.

Theorem agg_krum_translate : forall J v n f k, J <> [] ->
  wfmat n J -> length v = n -> (1 <= k)%nat ->
  agg_krum RN f k (translate v J) =
  match agg_krum RN f k J with Ok a => Ok (vadd RN a v) | Err e => Err e end.
Proof.
  intros J v n f k Hne HJ Hv Hk. unfold agg_krum. rewrite length_translate.
  destruct (length J <? f + 3)%nat; [reflexivity|].
  destruct (length J <? k)%nat eqn:Hkm; [reflexivity|].
  apply Nat.ltb_ge in Hkm. f_equal.
  rewrite (krum_weights_translate J v n f k HJ Hv).
  set (w := krum_weights_of_dist RN (krum_distances RN (gramR J)) f k).
  assert (HD : length (krum_distances RN (gramR J)) = length J)
    by (rewrite length_krum_distances; apply length_gram).
  assert (Hw : length w = length J) by (unfold w; rewrite length_krum_weights; exact HD).
  assert (Hs : vsumR w = 1) by (unfold w; apply krum_weights_sum; [exact Hk | rewrite HD; exact Hkm]).
  rewrite !(combine_wf n) by (auto using wfmat_translate; destruct J; first [contradiction|discriminate]).
  rewrite (vm_translate n v Hv w J HJ Hw), Hs, vscale_one. reflexivity.
Qed.

Print Assumptions krum_distances_translate.
Print Assumptions krum_weights_translate.
Print Assumptions agg_krum_translate.
