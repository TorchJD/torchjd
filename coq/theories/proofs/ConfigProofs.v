(* ConFIG, whose model is not in Gramian form: C08 (A(J Q) = A(J) Q for Q with orthonormal rows,
   with the oracle  B' = Q^T B) and C10 (row permutations, with the oracle  B' = B with its columns
   permuted); and C10 for MGDA when the Frank-Wolfe argmin is attained at a unique index along the run.
   The pseudo-inverse kernel is an ORACLE ARGUMENT of agg_config; what is proved about the oracle
   is that its CONTRACT (U B = I, and the four Penrose equations in operator form) transfers to
   the transformed oracle for the transformed problem. *)
From Coq Require Import Reals List Lia Lra Permutation.
From TJ Require Import Num Linalg NumR Agg.
From TJ.proofs Require Import LinalgR C18Proofs C08Proofs C10Proofs EquivarianceProofs MgdaProofs ImpartialProofs.
Import ListNotations.
Local Open Scope R_scope.

Lemma wfmat_config_units n J : wfmat n J -> wfmat n (config_units RN J).
Proof.
  intros HJ. rewrite config_units_cunit. apply wfmat_map. intros r Hr.
  rewrite length_cunit. apply (wfmat_In n J r HJ Hr).
Qed.

Theorem config_units_mmul n p J Q : orth n p Q -> wfmat n J ->
  config_units RN (mmulR p J Q) = mmulR p (config_units RN J) Q.
Proof.
  intros Ho HJ. rewrite !config_units_cunit. unfold mmul. rewrite !map_map.
  apply map_ext_in. intros r Hr. apply (cunit_vm n p Q r Ho). apply (wfmat_In n J r HJ Hr).
Qed.

(* the oracle for U Q :  B' = Q^T B   (p x m, by rows: row j of B' = sum_k Q_kj * row k of B) *)
Definition config_pinv_Q (p m : nat) (Q B : list (list R)) : list (list R) :=
  mmulR m (transposeR p Q) B.

Lemma length_config_pinv_Q p m Q B : length (config_pinv_Q p m Q B) = p.
Proof. unfold config_pinv_Q. rewrite length_mmul. apply length_transpose. Qed.

Lemma wfmat_config_pinv_Q p m Q B : wfmat m B -> wfmat m (config_pinv_Q p m Q B).
Proof. intros HB. unfold config_pinv_Q. apply wfmat_mmul. exact HB. Qed.

Lemma mv_config_pinv_Q p m Q B x : wfmat p Q -> wfmat m B -> length B = length Q ->
  mvR (config_pinv_Q p m Q B) x = vmR p (mvR B x) Q.
Proof.
  intros HQ HB Hl. unfold config_pinv_Q.
  rewrite (mv_mmul (length Q) m _ B x HB (wfmat_transpose p Q) Hl).
  apply mv_transpose; [exact HQ | rewrite length_mv; exact Hl].
Qed.

(* (U Q) (Q^T B) = U B : every equation of a contract that reads U' B' reduces to this *)
Lemma mv_mmul_pinv_Q n p m U Q B x : orth n p Q -> wfmat n U -> wfmat m B -> length B = n ->
  mvR (mmulR p U Q) (mvR (config_pinv_Q p m Q B) x) = mvR U (mvR B x).
Proof.
  intros Ho HU HB Hl. pose proof Ho as (HQ & HlQ & _).
  rewrite (mv_config_pinv_Q p m Q B x HQ HB) by congruence.
  rewrite (mv_mmul n p U Q _ HQ HU HlQ). f_equal.
  apply (mv_vm_orth n p Q _ Ho). rewrite length_mv. exact Hl.
Qed.

Theorem config_contract_mmul n p m J Q B : orth n p Q -> wfmat n J -> wfmat m B -> length B = n ->
  config_contract m J B -> config_contract m (mmulR p J Q) (config_pinv_Q p m Q B).
Proof.
  intros Ho HJ HB Hl HUB x Hx. rewrite (config_units_mmul n p J Q Ho HJ).
  rewrite (mv_mmul_pinv_Q n p m _ Q B x Ho (wfmat_config_units n J HJ) HB Hl).
  apply HUB. exact Hx.
Qed.

Theorem agg_config_mmul n p m J Q B pref : orth n p Q -> wfmat n J -> wfmat m B -> length B = n ->
  agg_config RN (config_pinv_Q p m Q B) pref (mmulR p J Q) =
  res_map (fun v => vmR p v Q) (agg_config RN B pref J).
Proof.
  intros Ho HJ HB Hl. pose proof Ho as (HQ & HlQ & _).
  rewrite !agg_config_cunit. rewrite length_mmul.
  destruct (pref_weights pref (sum_weights RN (length J)) (length J)) as [w|e];
    cbn [rbind res_map]; [|reflexivity].
  f_equal.
  rewrite (mv_config_pinv_Q p m Q B w HQ HB) by congruence.
  set (best := mvR B w).
  assert (Hb : length best = n) by (unfold best; rewrite length_mv; exact Hl).
  rewrite (cunit_vm n p Q best Ho Hb).
  set (u := cunit best).
  assert (Hu : length u = n) by (unfold u; rewrite length_cunit; exact Hb).
  rewrite (vm_vscale p _ u Q). f_equal. f_equal.
  unfold mmul. rewrite map_map. apply map_ext_in. intros g Hg.
  apply (dot_mmul n p Q g u Ho); [apply (wfmat_In n J g HJ Hg) | exact Hu].
Qed.

Theorem config_orthogonal n p m J Q B pref :
  orth n p Q -> wfmat n J -> wfmat m B -> length B = n ->
  let B' := config_pinv_Q p m Q B in
  length B' = p /\ wfmat m B' /\
  config_units RN (mmulR p J Q) = mmulR p (config_units RN J) Q /\
  ((forall x, length x = m -> mvR (config_units RN J) (mvR B x) = x) ->
   (forall x, length x = m -> mvR (config_units RN (mmulR p J Q)) (mvR B' x) = x)) /\
  agg_config RN B' pref (mmulR p J Q) = res_map (fun v => vmR p v Q) (agg_config RN B pref J).
Proof.
  intros Ho HJ HB Hl B'. split; [apply length_config_pinv_Q|].
  split; [apply wfmat_config_pinv_Q; exact HB|].
  split; [apply (config_units_mmul n); assumption|].
  split; [apply (config_contract_mmul n); assumption|].
  apply (agg_config_mmul n); assumption.
Qed.

(* U : m x n (by rows), B : n x m (by rows).  B = pinv(U)  iff
   U B U = U,  B U B = B,  U B symmetric,  B U symmetric. *)
Definition pinv_op (m n : nat) (U B : list (list R)) : Prop :=
  (forall z, length z = n -> mvR U (mvR B (mvR U z)) = mvR U z) /\
  (forall x, length x = m -> mvR B (mvR U (mvR B x)) = mvR B x) /\
  (forall x y, length x = m -> length y = m ->
     dotR (mvR U (mvR B x)) y = dotR x (mvR U (mvR B y))) /\
  (forall z z', length z = n -> length z' = n ->
     dotR (mvR B (mvR U z)) z' = dotR z (mvR B (mvR U z'))).

Theorem pinv_op_mmul n p m U Q B : orth n p Q -> wfmat n U -> wfmat m B -> length B = n ->
  pinv_op m n U B -> pinv_op m p (mmulR p U Q) (config_pinv_Q p m Q B).
Proof.
  intros Ho HU HB Hl (P1 & P2 & P3 & P4). pose proof Ho as (HQ & HlQ & _).
  assert (HlBQ : length B = length Q) by congruence.
  assert (EUB : forall x, mvR (mmulR p U Q) (mvR (config_pinv_Q p m Q B) x) = mvR U (mvR B x)).
  { intros x. apply (mv_mmul_pinv_Q n); assumption. }
  assert (EB : forall x, mvR (config_pinv_Q p m Q B) x = vmR p (mvR B x) Q).
  { intros x. apply mv_config_pinv_Q; assumption. }
  assert (EU : forall z, mvR (mmulR p U Q) z = mvR U (mvR Q z)).
  { intros z. apply (mv_mmul n); assumption. }
  assert (HQz : forall z, length (mvR Q z) = n) by (intros z; rewrite length_mv; exact HlQ).
  assert (HBx : forall x, length (mvR B x) = length Q) by (intros x; rewrite length_mv; exact HlBQ).
  repeat split.
  - intros z Hz. rewrite EUB, !EU. apply P1. apply HQz.
  - intros x Hx. rewrite EUB, !EB, P2 by exact Hx. reflexivity.
  - intros x y Hx Hy. rewrite !EUB. apply P3; assumption.
  - (* <(B U Q z) . Q, z'> = <B U Q z, Q z'> *)
    intros z z' Hz Hz'. rewrite !EB, !EU.
    rewrite (dot_vm p _ Q z' HQ) by apply HBx.
    rewrite (dot_comm z), (dot_vm p _ Q z HQ) by apply HBx.
    rewrite (dot_comm _ (mvR Q z)). apply P4; apply HQz.
Qed.

(* the oracle for the permuted units: B with its columns permuted *)
Definition config_pinv_perm (p : list nat) (B : list (list R)) : list (list R) :=
  map (permR p) B.

Lemma wfmat_config_pinv_perm p B : wfmat (length p) (config_pinv_perm p B).
Proof. apply wfmat_map. intros r _. apply length_permR. Qed.

Theorem config_units_perm_rows J p : (forall i, In i p -> (i < length J)%nat) ->
  config_units RN (perm_rows p J) = perm_rows p (config_units RN J).
Proof.
  intros Hp. rewrite !config_units_cunit. unfold perm_rows. rewrite map_map.
  apply map_ext_in. intros i Hi. symmetry.
  apply (nth_map_lt cunit J i [] []). apply Hp. exact Hi.
Qed.

(* B' (w permuted) = B w : dot products of two vectors permuted the same way *)
Lemma mv_config_pinv_perm m p B w : wfmat m B -> is_perm m p -> length w = m ->
  mvR (config_pinv_perm p B) (permR p w) = mvR B w.
Proof.
  intros HB Hp Hw. unfold config_pinv_perm, mv. rewrite map_map. apply map_ext_in.
  intros b Hb. pose proof (wfmat_In m B b HB Hb) as Hlb.
  apply dot_permR; [rewrite Hlb; exact Hp | congruence].
Qed.

Lemma mv_perm_rows p U y : (forall i, In i p -> (i < length U)%nat) ->
  mvR (perm_rows p U) y = permR p (mvR U y).
Proof.
  intros Hp. unfold perm_rows, permR. unfold mv at 1. rewrite map_map.
  apply map_ext_in. intros i Hi. symmetry. apply nth_mv. apply Hp. exact Hi.
Qed.

(* (P U) (B P^T) (P x) = P (U B x) : every equation of a contract that reads U' B' reduces to this *)
Lemma mv_perm_rows_pinv_perm m p U B x : length U = m -> wfmat m B -> is_perm m p -> length x = m ->
  mvR (perm_rows p U) (mvR (config_pinv_perm p B) (permR p x)) = permR p (mvR U (mvR B x)).
Proof.
  intros HU HB Hp Hx. rewrite (mv_config_pinv_perm m p B x HB Hp Hx).
  apply mv_perm_rows. intros i. rewrite HU. apply (is_perm_in m p i Hp).
Qed.

Theorem config_contract_perm J p B : wfmat (length J) B -> is_perm (length J) p ->
  config_contract (length J) J B ->
  config_contract (length J) (perm_rows p J) (config_pinv_perm p B).
Proof.
  intros HB Hp HUB x' Hx'. destruct (permR_preimage _ p x' Hp Hx') as (x & Hx & ->).
  rewrite config_units_perm_rows by (intros i; apply (is_perm_in _ p i Hp)).
  rewrite (mv_perm_rows_pinv_perm (length J)) by (assumption || apply map_length).
  f_equal. apply HUB. exact Hx.
Qed.

(* the aggregation: the preference vector travels with the rows *)
Theorem agg_config_perm J p B pref : wfmat (length J) B -> is_perm (length J) p ->
  (forall w, pref = Some w -> length w = length J) ->
  agg_config RN (config_pinv_perm p B) (option_map (permR p) pref) (perm_rows p J) =
  agg_config RN B pref J.
Proof.
  intros HB Hp Hpref.
  rewrite !agg_config_cunit, length_perm_rows, (is_perm_length _ _ Hp).
  apply (pref_bind_perm (length J) p pref (n1 RN)); auto.
  intros u _ Hu. rewrite (mv_config_pinv_perm (length J) p B u HB Hp Hu). do 2 f_equal.
  symmetry. apply vsum_perm. apply Permutation_map. apply perm_rows_Permutation. exact Hp.
Qed.

Theorem pinv_op_perm m n U B p : length U = m -> wfmat m B -> is_perm m p ->
  pinv_op m n U B -> pinv_op m n (perm_rows p U) (config_pinv_perm p B).
Proof.
  intros HU HB Hp (P1 & P2 & P3 & P4).
  assert (EU : forall y, mvR (perm_rows p U) y = permR p (mvR U y)).
  { intros y. apply mv_perm_rows. intros i. rewrite HU. apply (is_perm_in m p i Hp). }
  assert (HUy : forall y, length (mvR U y) = m) by (intros y; rewrite length_mv; exact HU).
  assert (EB : forall x, length x = m -> mvR (config_pinv_perm p B) (permR p x) = mvR B x).
  { intros x Hx. apply (mv_config_pinv_perm m); assumption. }
  repeat split.
  - intros z Hz. rewrite !EU. rewrite EB by apply HUy. rewrite P1 by exact Hz. reflexivity.
  - intros x' Hx'. destruct (permR_preimage m p x' Hp Hx') as (x & Hx & ->).
    rewrite EB by exact Hx. rewrite EU. rewrite EB by apply HUy. apply P2. exact Hx.
  - intros x' y' Hx' Hy'. destruct (permR_preimage m p x' Hp Hx') as (x & Hx & ->).
    destruct (permR_preimage m p y' Hp Hy') as (y & Hy & ->).
    rewrite !(mv_perm_rows_pinv_perm m) by assumption.
    rewrite !dot_permR by (rewrite ?HUy, ?Hx; first [exact Hp | congruence]).
    apply P3; assumption.
  - intros z z' Hz Hz'. rewrite !EU. rewrite !EB by apply HUy. apply P4; assumption.
Qed.

Theorem config_permutation J p B pref :
  wfmat (length J) B -> is_perm (length J) p ->
  (forall w, pref = Some w -> length w = length J) ->
  let B' := config_pinv_perm p B in
  length B' = length B /\ wfmat (length J) B' /\
  config_units RN (perm_rows p J) = perm_rows p (config_units RN J) /\
  (forall w, length w = length J -> mvR B' (permR p w) = mvR B w) /\
  ((forall x, length x = length J -> mvR (config_units RN J) (mvR B x) = x) ->
   (forall x, length x = length J -> mvR (config_units RN (perm_rows p J)) (mvR B' x) = x)) /\
  agg_config RN B' (option_map (permR p) pref) (perm_rows p J) = agg_config RN B pref J.
Proof.
  intros HB Hp Hpref B'. pose proof (is_perm_length _ _ Hp) as Hl.
  split; [apply map_length|].
  split; [rewrite <- Hl; apply wfmat_config_pinv_perm|].
  split; [apply config_units_perm_rows; intros i; apply (is_perm_in _ p i Hp)|].
  split; [intros w Hw; apply (mv_config_pinv_perm (length J)); assumption|].
  split; [apply config_contract_perm; assumption|].
  apply agg_config_perm; assumption.
Qed.

(* in the representation of C10Proofs (Permutation J J'), default preference *)
Corollary agg_config_Permutation J J' B : wfmat (length J) B -> Permutation J J' ->
  exists p, is_perm (length J) p /\ J' = perm_rows p J /\
    ((forall x, length x = length J -> mvR (config_units RN J) (mvR B x) = x) ->
     (forall x, length x = length J' ->
        mvR (config_units RN J') (mvR (config_pinv_perm p B) x) = x)) /\
    agg_config RN (config_pinv_perm p B) None J' = agg_config RN B None J.
Proof.
  intros HB HP. destruct (Permutation_perm_rows J J' HP) as (p & Hp & ->).
  exists p. split; [exact Hp|]. split; [reflexivity|]. split.
  - intros HUB x Hx. rewrite length_perm_rows, (is_perm_length _ _ Hp) in Hx.
    apply config_contract_perm; assumption.
  - apply (agg_config_perm J p B None HB Hp). discriminate.
Qed.

Definition is_min_idx (v : list R) (i : nat) : Prop :=
  (i < length v)%nat /\ forall k, (k < length v)%nat -> nth i v 0 <= nth k v 0.
(* the minimum of v is attained at one index only (no exact tie AT THE MINIMAL VALUE) *)
Definition uniq_min (v : list R) : Prop :=
  forall i j, is_min_idx v i -> is_min_idx v j -> i = j.

Lemma argmin_is_min_idx v : v <> [] -> is_min_idx v (argmin RN v).
Proof.
  intros Hne. split; [apply argmin_lt; exact Hne|]. intros k Hk.
  pose proof (argmin_min v) as H. rewrite Forall_forall in H. apply H. apply nth_In. exact Hk.
Qed.

Lemma argmin_permR m p v : is_perm m p -> length v = m -> (0 < m)%nat -> uniq_min v ->
  nth (argmin RN (permR p v)) p 0%nat = argmin RN v.
Proof.
  intros Hp Hv Hm Hu. pose proof (is_perm_length m p Hp) as Hl.
  assert (Hne : v <> []) by (apply (lt_length_nonnil v 0%nat); lia).
  assert (Hne' : permR p v <> []) by (apply (lt_length_nonnil _ 0%nat); rewrite length_permR; lia).
  destruct (argmin_is_min_idx (permR p v) Hne') as (Ht & Hmin).
  set (t' := argmin RN (permR p v)) in *. rewrite length_permR in Ht, Hmin.
  apply Hu; [|apply argmin_is_min_idx; exact Hne].
  split.
  - rewrite Hv. apply (is_perm_nth_lt m p t' Hp). lia.
  - intros k Hk. rewrite Hv in Hk.
    assert (Hkp : In k p) by (apply (is_perm_in m p k Hp); exact Hk).
    pose proof (pos_lt k p Hkp) as Hb. pose proof (nth_pos k p Hkp) as Eb.
    specialize (Hmin (pos k p) Hb). rewrite !nth_permR in Hmin by assumption.
    rewrite Eb in Hmin. exact Hmin.
Qed.

Lemma onehot_argmin_permR m p v x : is_perm m p -> length v = m -> uniq_min v ->
  onehotR m (argmin RN (permR p v)) x = permR p (onehotR m (argmin RN v) x).
Proof.
  intros Hp Hv Hu. pose proof (is_perm_length m p Hp) as Hl. destruct m as [|m'].
  - destruct p; [reflexivity | discriminate].
  - assert (Ht : (argmin RN (permR p v) < S m')%nat).
    { rewrite <- Hl, <- (length_permR p v). apply argmin_lt, (lt_length_nonnil _ 0%nat).
      rewrite length_permR, Hl. apply Nat.lt_0_succ. }
    rewrite (onehot_perm (S m') p _ x Hp Ht).
    rewrite (argmin_permR (S m') p v Hp Hv (Nat.lt_0_succ m') Hu). reflexivity.
Qed.

Definition fw_update (alpha e : list R) (g : R) : list R * R :=
  (vaddR (vscaleR (1 - g) alpha) (vscaleR g e), g).

Lemma length_fw_update alpha e g : length alpha = length e ->
  length (fst (fw_update alpha e g)) = length alpha.
Proof. intros H. cbn [fw_update fst]. rewrite length_vadd; rewrite !length_vscale; congruence. Qed.

Lemma fw_update_perm p alpha e g : length alpha = length e ->
  fw_update (permR p alpha) (permR p e) g = (permR p (fst (fw_update alpha e g)), g).
Proof.
  intros H. unfold fw_update. cbn [fst].
  rewrite permR_vadd by (rewrite !length_vscale; exact H). rewrite !permR_vscale. reflexivity.
Qed.

(* the step towards a vertex e with the exact line search; mgda_step takes e at the argmin *)
Definition fw_step (G : list (list R)) (alpha e : list R) : list R * R :=
  fw_update alpha e (fw_gamma (dotR alpha (mvR G e)) (dotR alpha (mvR G alpha)) (dotR e (mvR G e))).

Lemma mgda_step_fw G alpha :
  mgda_step RN G alpha = fw_step G alpha (onehotR (length alpha) (argmin RN (mvR G alpha)) 1).
Proof. reflexivity. Qed.

Lemma fw_step_perm m G p alpha e : length G = m -> wfmat m G -> is_perm m p ->
  length alpha = m -> length e = m ->
  fw_step (permM p G) (permR p alpha) (permR p e) =
  (permR p (fst (fw_step G alpha e)), snd (fw_step G alpha e)).
Proof.
  intros HG Hwf Hp Ha He. unfold fw_step.
  rewrite !(mv_permM m G p _ HG Hwf Hp) by assumption.
  rewrite !dot_permR by (rewrite ?length_mv, ?Ha, ?He; first [exact Hp | congruence]).
  apply fw_update_perm. congruence.
Qed.

Lemma length_mgda_step m G alpha : length alpha = m ->
  length (fst (mgda_step RN G alpha)) = m.
Proof.
  intros Hl. rewrite mgda_step_fw. unfold fw_step.
  rewrite <- Hl. apply (length_fw_update alpha). rewrite length_onehot. reflexivity.
Qed.

Lemma length_mgda_loop m G eps : forall iters alpha, length alpha = m ->
  length (mgda_loop RN iters G eps alpha) = m.
Proof.
  apply (mgda_loop_ind (fun a => length a = m)). apply length_mgda_step.
Qed.

Theorem mgda_step_perm m G p alpha : length G = m -> wfmat m G -> is_perm m p ->
  length alpha = m -> uniq_min (mvR G alpha) ->
  mgda_step RN (permM p G) (permR p alpha) =
  (permR p (fst (mgda_step RN G alpha)), snd (mgda_step RN G alpha)).
Proof.
  intros HG Hwf Hp Ha Hu. rewrite !mgda_step_fw.
  rewrite length_permR, (is_perm_length m p Hp), Ha, (mv_permM m G p alpha HG Hwf Hp Ha).
  rewrite (onehot_argmin_permR m p (mvR G alpha) _ Hp) by (rewrite ?length_mv; assumption).
  apply (fw_step_perm m); auto using length_onehot.
Qed.

(* no exact tie at the minimum of G alpha, at every step the loop actually performs *)
Fixpoint mgda_no_ties (iters : nat) (G : list (list R)) (eps : R) (alpha : list R) : Prop :=
  match iters with
  | O => True
  | S k => uniq_min (mvR G alpha) /\
           (let '(alpha', gamma) := mgda_step RN G alpha in
            if nltb RN gamma eps then True else mgda_no_ties k G eps alpha')
  end.

Theorem mgda_loop_perm m G p eps : length G = m -> wfmat m G -> is_perm m p ->
  forall iters alpha, length alpha = m -> mgda_no_ties iters G eps alpha ->
  mgda_loop RN iters (permM p G) eps (permR p alpha) =
  permR p (mgda_loop RN iters G eps alpha).
Proof.
  intros HG Hwf Hp. induction iters as [|k IH]; intros alpha Ha Hnt; [reflexivity|].
  cbn [mgda_loop mgda_no_ties] in *. destruct Hnt as (Hu & Hnt).
  rewrite (mgda_step_perm m G p alpha HG Hwf Hp Ha Hu).
  pose proof (length_mgda_step m G alpha Ha) as Hl'.
  destruct (mgda_step RN G alpha) as [a' g]. cbn [fst snd] in *.
  destruct (nltb RN g eps); [reflexivity|]. apply IH; assumption.
Qed.

Theorem mgda_weights_perm m G p eps iters : length G = m -> wfmat m G -> is_perm m p ->
  mgda_no_ties iters G eps (mean_weights RN m) ->
  mgda_weights RN (permM p G) eps iters = permR p (mgda_weights RN G eps iters).
Proof.
  intros HG Hwf Hp Hnt. unfold mgda_weights. rewrite length_permM, (is_perm_length m p Hp), HG.
  pose proof (mgda_loop_perm m G p eps HG Hwf Hp iters _ (repeat_length _ m) Hnt) as E.
  unfold mean_weights in *. rewrite (permR_repeat m p _ Hp) in E. exact E.
Qed.

Lemma length_mgda_weights G eps iters : length (mgda_weights RN G eps iters) = length G.
Proof. unfold mgda_weights. apply length_mgda_loop. apply length_mean. Qed.

Theorem agg_mgda_perm n J p eps iters : wfmat n J -> is_perm (length J) p ->
  mgda_no_ties iters (gramR J) eps (mean_weights RN (length J)) ->
  agg_mgda RN eps iters (perm_rows p J) = agg_mgda RN eps iters J.
Proof.
  intros HJ Hp Hnt. unfold agg_mgda. apply (gramian_form_perm n); auto.
  - rewrite length_mgda_weights. apply length_gram.
  - rewrite gram_perm_rows.
    apply (mgda_weights_perm (length J)); auto using length_gram, wfmat_gram.
Qed.

Corollary agg_mgda_Permutation n J J' eps iters : wfmat n J -> Permutation J J' ->
  mgda_no_ties iters (gramR J) eps (mean_weights RN (length J)) ->
  agg_mgda RN eps iters J' = agg_mgda RN eps iters J.
Proof.
  intros HJ HP Hnt. apply (perm_rows_invariant (agg_mgda RN eps iters) J J'); [|exact HP].
  intros p Hp. apply (agg_mgda_perm n); assumption.
Qed.

(* sufficient condition: pairwise distinct entries (the hypothesis used for Krum) *)
Lemma distinct_uniq_min v : distinct_on (length v) v -> uniq_min v.
Proof.
  intros Hd i j (Hi & Hmi) (Hj & Hmj). destruct (Nat.eq_dec i j) as [E|E]; [exact E|exfalso].
  apply (Hd i j Hi Hj E). pose proof (Hmi j Hj). pose proof (Hmj i Hi). lra.
Qed.

(* non-vacuity: the hypotheses are jointly satisfiable.
   Matrices that act as the identity are pseudo-inverses of each other. *)
Lemma pinv_op_id m U B : (forall x, length x = m -> mvR U x = x) ->
  (forall x, length x = m -> mvR B x = x) -> pinv_op m m U B.
Proof.
  intros HU HB. repeat split.
  - intros z Hz. rewrite (HU z Hz), (HB z Hz). exact (HU z Hz).
  - intros x Hx. rewrite (HB x Hx), (HU x Hx). exact (HB x Hx).
  - intros x y Hx Hy. rewrite (HB x Hx), (HB y Hy), (HU x Hx), (HU y Hy). reflexivity.
  - intros z z' Hz Hz'. rewrite (HU z Hz), (HU z' Hz'), (HB z Hz), (HB z' Hz'). reflexivity.
Qed.

Example config_K1_hypotheses_satisfiable :
  let J := [[1; 0]; [0; 1]] in let B := [[1; 0]; [0; 1]] in
  let Q := [[0; 1; 0]; [0; 0; 1]] in
  orth 2 3 Q /\ wfmat 2 J /\ wfmat 2 B /\ length B = 2%nat /\
  (forall x, length x = 2%nat -> mvR (config_units RN J) (mvR B x) = x) /\
  pinv_op 2 2 (config_units RN J) B.
Proof.
  cbv zeta.
  assert (HI : forall x, length x = 2%nat -> mvR [[1; 0]; [0; 1]] x = x).
  { intros [|a [|b [|c s]]] H; try discriminate. cbn [mv map dot]. rn. f_equal; [lra | f_equal; lra]. }
  assert (EU : config_units RN [[1; 0]; [0; 1]] = [[1; 0]; [0; 1]]).
  { assert (H1 : dotR [1; 0] [1; 0] = 1) by (cbn [dot]; rn; lra).
    assert (H2 : dotR [0; 1] [0; 1] = 1) by (cbn [dot]; rn; lra).
    rewrite config_units_cunit. cbn [map].
    rewrite !cunit_nonzero by (rewrite ?H1, ?H2; lra).
    rewrite H1, H2, sqrt_1. unfold Rdiv. rewrite Rinv_1, Rmult_1_r. rewrite !vscale_one. reflexivity. }
  rewrite EU.
  split; [|split; [repeat constructor|split; [repeat constructor|split; [reflexivity|split]]]].
  - split; [repeat constructor|]. split; [reflexivity|].
    intros [|a [|b [|c s]]] H; try discriminate. cbn [gram mv map dot]. rn. f_equal; [lra|f_equal; lra].
  - intros x Hx. rewrite !(HI x Hx). reflexivity.
  - apply pinv_op_id; exact HI.
Qed.

Example mgda_no_ties_satisfiable eps :
  mgda_no_ties 1 (gramR [[1; 0]; [0; 2]]) eps (mean_weights RN 2).
Proof.
  cbn [mgda_no_ties]. split.
  - apply distinct_uniq_min. intros i j Hi Hj Hij. cbn in Hi, Hj.
    destruct i as [|[|i]], j as [|[|j]]; try lia; cbn; lra.
  - destruct (mgda_step RN (gramR [[1; 0]; [0; 2]]) (mean_weights RN 2)) as [a g].
    destruct (nltb RN g eps); exact I.
Qed.

Print Assumptions config_units_mmul.
Print Assumptions config_contract_mmul.
Print Assumptions agg_config_mmul.
Print Assumptions config_orthogonal.
Print Assumptions pinv_op_mmul.
Print Assumptions config_units_perm_rows.
Print Assumptions config_contract_perm.
Print Assumptions agg_config_perm.
Print Assumptions pinv_op_perm.
Print Assumptions config_permutation.
Print Assumptions agg_config_Permutation.
Print Assumptions argmin_permR.
Print Assumptions mgda_step_perm.
Print Assumptions mgda_loop_perm.
Print Assumptions mgda_weights_perm.
Print Assumptions agg_mgda_perm.
Print Assumptions agg_mgda_Permutation.
Print Assumptions config_K1_hypotheses_satisfiable.
Print Assumptions mgda_no_ties_satisfiable.
