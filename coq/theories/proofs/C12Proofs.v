(* _get_leaf_tensors is two grad_fn tests followed by the walk of Traverse.v from the gradient
   edges of the tensors, those of the excluded tensors left out ([get_leaf_tensors_eq]); what
   TraverseProofs.v says of the walk makes its result a reachability statement and makes it defined
   on a finite graph.  backward and mtl_backward with parameter lists omitted unfold to the
   explicit calls on the sets so discovered. *)
From Coq Require Import List Bool Arith.
From TJ Require Import Num Chunk Autojac Traverse.
From TJ.proofs Require Import AutojacBasics C20Proofs TraverseProofs.
Import ListNotations.

Lemma somes_length : forall {X : Type} (l : list (option X)),
  length (somes l) <= length l.
Proof.
  intros X l. unfold somes. induction l as [|[c|] l IH]; cbn [flat_map app length].
  - apply le_n.
  - apply le_n_S. exact IH.
  - apply le_S. exact IH.
Qed.

Lemma all_some_map : forall {X Y : Type} (f : X -> option Y) (l : list X),
  all_some (map f l) = true <-> (forall t, In t l -> f t <> None).
Proof.
  intros X Y f l. unfold all_some. split.
  - intros H t Ht Hf. pose proof (proj1 (forallb_forall _ _) H (f t) (in_map f l t Ht)) as H'.
    rewrite Hf in H'. discriminate H'.
  - intros H. apply forallb_forall. intros o Ho. apply in_map_iff in Ho. destruct Ho as [t [<- Ht]].
    specialize (H t Ht). destruct (f t); [reflexivity | contradiction].
Qed.

Section C12.
Context {T : Type} (N : Num T) (P : prog T) (E : egraph) (A : list (list T) -> res (list T)).

(* the graph is finite: all grad_fn nodes and all their descendants lie in a duplicate-free list
   no longer than the declared node count *)
Definition graph_closed (nodes : list nid) : Prop :=
  NoDup nodes /\ length nodes <= p_nnodes P /\
  (forall t r, p_gfn P t = Some r -> In r nodes) /\
  (forall n c k, In n nodes -> In (Some (c, k)) (e_next E n) -> In c nodes).

(* excluding one output of a multi-output node does not exclude its siblings: an edge is excluded
   iff it is the gradient edge of an excluded tensor *)
Lemma tensor_edges_In : forall ts n k,
  In (n, k) (tensor_edges P E ts) <-> exists t, In t ts /\ p_gfn P t = Some n /\ e_onr E t = k.
Proof.
  intros ts n k. unfold tensor_edges. split.
  - intros H. apply in_flat_map in H. destruct H as [t [Ht Hi]]. exists t. split; [exact Ht|].
    destruct (p_gfn P t) as [m|]; [|destruct Hi]. destruct Hi as [Hi|[]].
    injection Hi as <- Hk. split; [reflexivity | exact Hk].
  - intros [t [Ht [Hg <-]]]. apply in_flat_map. exists t. split; [exact Ht|].
    rewrite Hg. left. reflexivity.
Qed.

Lemma get_leaf_tensors_eq : forall tensors excluded,
  (forall t, In t (tensors ++ excluded) -> p_gfn P t <> None) ->
  get_leaf_tensors P E tensors excluded =
  match descendant_accumulate_grads (e_next E) (p_acc P) (S (p_nnodes P + length tensors))
          (tensor_edges P E tensors) (tensor_edges P E excluded) with
  | None => Err RuntimeError
  | Some accs => Ok (dedup (somes (map (p_acc P) accs)))
  end.
Proof.
  intros tensors excluded Hall. unfold get_leaf_tensors.
  rewrite (proj2 (all_some_map (p_gfn P) tensors)), (proj2 (all_some_map (p_gfn P) excluded)).
  - reflexivity.
  - intros t Ht. apply Hall. apply in_or_app. right. exact Ht.
  - intros t Ht. apply Hall. apply in_or_app. left. exact Ht.
Qed.

Lemma get_leaf_tensors_rejects : forall tensors excluded,
  (exists t, In t (tensors ++ excluded) /\ p_gfn P t = None) ->
  get_leaf_tensors P E tensors excluded = Err ValueError.
Proof.
  intros tensors excluded [t [Ht Hg]]. unfold get_leaf_tensors.
  destruct (all_some (map (p_gfn P) tensors)) eqn:H1; [|reflexivity].
  destruct (all_some (map (p_gfn P) excluded)) eqn:H2; [|reflexivity].
  exfalso. apply in_app_or in Ht. destruct Ht as [Ht|Ht].
  - exact (proj1 (all_some_map _ _) H1 t Ht Hg).
  - exact (proj1 (all_some_map _ _) H2 t Ht Hg).
Qed.

Lemma get_leaf_tensors_ok : forall tensors excluded leaves,
  get_leaf_tensors P E tensors excluded = Ok leaves ->
  (forall t, In t tensors -> p_gfn P t <> None) /\
  (forall t, In t excluded -> p_gfn P t <> None) /\
  NoDup leaves /\
  (forall t, In t leaves <->
     exists a o r, p_acc P a = Some t /\ In o tensors /\ p_gfn P o = Some r /\
                   ~ In (r, e_onr E o) (tensor_edges P E excluded) /\
                   epath (e_next E) (tensor_edges P E excluded) r a).
Proof.
  intros tensors excluded leaves H.
  assert (Hall : forall t, In t (tensors ++ excluded) -> p_gfn P t <> None).
  { intros t Ht Hg. rewrite get_leaf_tensors_rejects in H; [discriminate H|].
    exists t. split; assumption. }
  rewrite (get_leaf_tensors_eq tensors excluded Hall) in H.
  destruct (descendant_accumulate_grads _ _ _ _ _) as [accs|] eqn:Hd; [|discriminate H].
  injection H as <-.
  pose proof (bfs_sound_complete (e_next E) (p_acc P) _ _ _ _ Hd) as Hsc.
  split; [|split; [|split]].
  - intros t Ht. apply Hall. apply in_or_app. left. exact Ht.
  - intros t Ht. apply Hall. apply in_or_app. right. exact Ht.
  - apply NoDup_nodup.
  - intros t. split.
    + intros Ht. apply dedup_In, somes_In, in_map_iff in Ht. destruct Ht as [a [Hat Ha]].
      apply Hsc in Ha. destruct Ha as [_ [r [j [Hr [Hex Hp]]]]].
      apply tensor_edges_In in Hr. destruct Hr as [o [Ho [Hor <-]]].
      exists a, o, r.
      split; [exact Hat | split; [exact Ho | split; [exact Hor | split; [exact Hex | exact Hp]]]].
    + intros [a [o [r [Hat [Ho [Hor [Hex Hp]]]]]]].
      apply dedup_In, somes_In, in_map_iff. exists a. split; [exact Hat|].
      apply Hsc. split.
      * rewrite Hat. discriminate.
      * exists r, (e_onr E o). split; [|split; [exact Hex | exact Hp]].
        apply tensor_edges_In. exists o. split; [exact Ho | split; [exact Hor | reflexivity]].
Qed.

Lemma get_leaf_tensors_defined : forall nodes tensors excluded,
  (forall x, reach (e_next E) (tensor_edges P E tensors) (tensor_edges P E excluded) x ->
             In x nodes) ->
  length nodes <= p_nnodes P + length tensors ->
  (forall t, In t (tensors ++ excluded) -> p_gfn P t <> None) ->
  exists leaves, get_leaf_tensors P E tensors excluded = Ok leaves.
Proof.
  intros nodes tensors excluded Hreach Hlen Hall.
  rewrite (get_leaf_tensors_eq tensors excluded Hall).
  destruct (descendant_accumulate_grads _ _ _ _ _) as [accs|] eqn:Hd.
  - eexists. reflexivity.
  - exfalso. revert Hd.
    apply (bfs_terminates (e_next E) (p_acc P) nodes); [exact Hreach|].
    apply le_n_S. exact Hlen.
Qed.

Lemma get_leaf_tensors_total : forall nodes tensors excluded,
  graph_closed nodes ->
  (forall t, In t (tensors ++ excluded) -> p_gfn P t <> None) ->
  exists leaves, get_leaf_tensors P E tensors excluded = Ok leaves.
Proof.
  intros nodes tensors excluded (_ & Hlen & Hroots & Hcl).
  apply (get_leaf_tensors_defined nodes).
  - apply (reach_least (e_next E) _ _ (fun x => In x nodes)).
    + intros r k Hr _. apply tensor_edges_In in Hr. destruct Hr as [o [_ [Hor _]]].
      exact (Hroots o r Hor).
    + intros n c k Hn Hc _. exact (Hcl n c k Hn Hc).
  - exact (Nat.le_trans _ _ _ Hlen (Nat.le_add_r _ _)).
Qed.

Lemma backward_default_is_explicit : forall sigma tensors k retain s leaves,
  get_leaf_tensors P E tensors [] = Ok leaves ->
  backward_default N P E A sigma tensors k retain s
  = backward_model N P A tensors (sigma leaves) k retain s.
Proof.
  intros sigma tensors k retain s leaves H. unfold backward_default, backward_model.
  destruct (negb (valid_chunk k)); [reflexivity|].
  destruct tensors as [|t0 tensors]; [reflexivity|]. rewrite H. reflexivity.
Qed.

Lemma backward_default_rejects_leaf_output : forall sigma tensors k retain s,
  (exists t, In t tensors /\ p_gfn P t = None) ->
  backward_default N P E A sigma tensors k retain s = (Err ValueError, s).
Proof.
  intros sigma tensors k retain s [t [Ht Hg]]. unfold backward_default.
  destruct (negb (valid_chunk k)); [reflexivity|].
  destruct tensors as [|t0 tensors]; [reflexivity|].
  rewrite get_leaf_tensors_rejects; [reflexivity|].
  exists t. split; [apply in_or_app; left; exact Ht | exact Hg].
Qed.

Lemma tasks_fold_ok : forall (sigma : list tid -> list tid) features losses ts,
  Forall2 (fun loss l => get_leaf_tensors P E [loss] features = Ok l) losses ts ->
  fold_right (fun loss acc =>
                rbind (get_leaf_tensors P E [loss] features) (fun l =>
                rbind acc (fun ls => Ok (sigma l :: ls))))
             (Ok []) losses
  = Ok (map sigma ts).
Proof.
  intros sigma features losses ts HF.
  induction HF as [|loss l losses ts Hl HF IH].
  - reflexivity.
  - cbn [fold_right map]. rewrite Hl. cbn [rbind]. rewrite IH. reflexivity.
Qed.

(* with both parameter lists given, mtl_backward_default IS the explicit call: the two start with
   the same chunk test *)
Lemma mtl_default_given : forall sigma losses features tasks shared k retain s,
  mtl_backward_default N P E A sigma losses features (Some tasks) (Some shared) k retain s
  = mtl_backward_model N P A losses features tasks shared k retain s.
Proof.
  intros sigma losses features tasks shared k retain s.
  unfold mtl_backward_default, mtl_backward_model. destruct (negb (valid_chunk k)); reflexivity.
Qed.

(* mtl_backward without shared_params / tasks_params IS the explicit call on the discovered sets:
   an omitted list resolves to the discovered one, which leaves the call with both lists given *)
Lemma mtl_default_is_explicit : forall sigma losses features k retain s sh ts,
  get_leaf_tensors P E features [] = Ok sh ->
  Forall2 (fun loss l => get_leaf_tensors P E [loss] features = Ok l) losses ts ->
  mtl_backward_default N P E A sigma losses features None None k retain s
  = mtl_backward_model N P A losses features (map sigma ts) (sigma sh) k retain s.
Proof.
  intros sigma losses features k retain s sh ts Hsh HF.
  unfold mtl_backward_default. rewrite Hsh, (tasks_fold_ok sigma features losses ts HF).
  exact (mtl_default_given sigma losses features (map sigma ts) (sigma sh) k retain s).
Qed.

Lemma mtl_default_shared_only : forall sigma losses features tasks k retain s sh,
  get_leaf_tensors P E features [] = Ok sh ->
  mtl_backward_default N P E A sigma losses features (Some tasks) None k retain s
  = mtl_backward_model N P A losses features tasks (sigma sh) k retain s.
Proof.
  intros sigma losses features tasks k retain s sh Hsh.
  unfold mtl_backward_default. rewrite Hsh.
  exact (mtl_default_given sigma losses features tasks (sigma sh) k retain s).
Qed.

Lemma mtl_default_tasks_only : forall sigma losses features shared k retain s ts,
  Forall2 (fun loss l => get_leaf_tensors P E [loss] features = Ok l) losses ts ->
  mtl_backward_default N P E A sigma losses features None (Some shared) k retain s
  = mtl_backward_model N P A losses features (map sigma ts) shared k retain s.
Proof.
  intros sigma losses features shared k retain s ts HF.
  unfold mtl_backward_default. rewrite (tasks_fold_ok sigma features losses ts HF).
  exact (mtl_default_given sigma losses features (map sigma ts) shared k retain s).
Qed.

Lemma mtl_overlap_rejected : forall losses features tasks shared k retain s q ps,
  In ps tasks -> In q ps -> In q shared ->
  mtl_backward_model N P A losses features tasks shared k retain s = (Err ValueError, s).
Proof.
  intros losses features tasks shared k retain s q ps Hps Hq Hsh.
  apply mtl_args_rejected. exact (bad_overlap P losses features tasks shared k retain q ps Hps Hq Hsh).
Qed.
End C12.

Print Assumptions get_leaf_tensors_ok.
Print Assumptions get_leaf_tensors_total.
Print Assumptions backward_default_is_explicit.
Print Assumptions mtl_default_is_explicit.
Print Assumptions mtl_overlap_rejected.
