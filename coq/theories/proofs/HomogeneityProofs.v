(* C11 positive homogeneity  A(t J) = t A(J), t > 0, for the aggregators not covered by
   C11Proofs.v.  PCGrad, Krum, UPGrad, DualProj and Aligned-MTL are weightings of the Gramian and go
   through C11Proofs.homogeneous_meta(_scaled): it is enough that the weighting does not change when
   the Gramian is multiplied by t^2, the oracle values being scaled along (sigma_max by t,
   eigenvalues and tolerance by t^2).  CAGrad, ConFIG and GradDrop are proved on their definitions. *)
From Coq Require Import Reals List Bool Lia Lra.
From TJ Require Import Num Linalg NumR Agg.
From TJ.proofs Require Import LinalgR QPProofs C03Proofs C18Proofs C16Proofs C08Proofs C10Proofs C11Proofs.
Import ListNotations.
Local Open Scope R_scope.

Lemma pcgrad_inner_scale k G i perm : 0 < k -> forall cw,
  pcgrad_inner RN (mscaleR k G) i perm cw = pcgrad_inner RN G i perm cw.
Proof.
  intros Hk. induction perm as [|j perm IH]; intros cw; [reflexivity|].
  cbn [pcgrad_inner]. destruct (j =? i)%nat; [apply IH|].
  rewrite nth_row_mscale, dot_vscale_l, mget_mscale. rn.
  rewrite Rltb_scale_0r by exact Hk.
  destruct (Rltb (dotR (nth_row G j) cw) 0).
  - rewrite (vupd_ext cw j _ (fun x => x - dotR (nth_row G j) cw / mget RN G j j)); [apply IH|].
    intros x. rewrite div_scale by lra. reflexivity.
  - apply IH.
Qed.

Lemma pcgrad_outer_scale k G m perms : 0 < k -> forall i acc,
  pcgrad_outer RN (mscaleR k G) m i perms acc = pcgrad_outer RN G m i perms acc.
Proof.
  intros Hk. induction perms as [|perm ps IH]; intros i acc; [reflexivity|].
  cbn [pcgrad_outer]. rewrite pcgrad_inner_scale by exact Hk. apply IH.
Qed.

Theorem pcgrad_weights_scale k G perms : 0 < k ->
  pcgrad_weights RN (mscaleR k G) perms = pcgrad_weights RN G perms.
Proof.
  intros Hk. unfold pcgrad_weights. rewrite length_mscale. apply pcgrad_outer_scale. exact Hk.
Qed.

Lemma Om_pcgrad_scale k perms G : 0 < k ->
  C08Proofs.Om_pcgrad perms (mscaleR k G) = C08Proofs.Om_pcgrad perms G.
Proof. intros Hk. unfold C08Proofs.Om_pcgrad. rewrite pcgrad_weights_scale by exact Hk. reflexivity. Qed.

Theorem pcgrad_homogeneous t perms J : 0 < t ->
  agg_pcgrad RN perms (mscaleR t J) = vscaleR t (agg_pcgrad RN perms J).
Proof.
  intros Ht.
  pose proof (homogeneous_meta t J (Om_pcgrad perms)
                (Om_pcgrad_scale _ perms _ (Rmult_lt_0_compat _ _ Ht Ht))) as H.
  rewrite <- !gf_pcgrad in H. injection H as H. exact H.
Qed.

(* sigma_max is homogeneous: on the scaled side the oracle value is t s.  The hypothesis
   nltb (t s) ne = nltb s ne says that both sides take the same norm_eps branch. *)
Lemma normalized_gramian_scale t G s ne : 0 < t -> nltb RN (t * s) ne = nltb RN s ne ->
  normalized_gramian RN (mscaleR (t * t) G) (t * s) ne = normalized_gramian RN G s ne.
Proof.
  intros Ht Hb. unfold normalized_gramian. rewrite Hb, length_mscale.
  destruct (nltb RN s ne); [reflexivity|]. rewrite mscale_mscale. f_equal. rn.
  replace (t * s * (t * s)) with (t * t * (s * s)) by ring. apply div_scale_cancel.
  apply Rgt_not_eq, Rmult_lt_0_compat; exact Ht.
Qed.

Theorem reg_norm_gramian_scale t G s ne re : 0 < t -> nltb RN (t * s) ne = nltb RN s ne ->
  reg_norm_gramian RN (mscaleR (t * t) G) (t * s) ne re = reg_norm_gramian RN G s ne re.
Proof.
  intros Ht Hb. unfold reg_norm_gramian. rewrite normalized_gramian_scale by assumption. reflexivity.
Qed.

(* the branch hypothesis of the UPGrad / DualProj / CAGrad theorems is what "s >= norm_eps on both
   sides" (or "below on both sides") gives *)
Lemma same_branch_normalised t s ne : ne <= s -> ne <= t * s -> nltb RN (t * s) ne = nltb RN s ne.
Proof.
  intros H1 H2. rn. transitivity false; [apply Rltb_false; exact H2 | symmetry; apply Rltb_false; exact H1].
Qed.
Lemma same_branch_below t s ne : s < ne -> t * s < ne -> nltb RN (t * s) ne = nltb RN s ne.
Proof.
  intros H1 H2. rn. transitivity true; [apply Rltb_true; exact H2 | symmetry; apply Rltb_true; exact H1].
Qed.

Lemma Om_dualproj_scale t qp pref s ne re G : 0 < t -> nltb RN (t * s) ne = nltb RN s ne ->
  Om_dualproj qp pref (t * s) ne re (mscaleR (t * t) G) = Om_dualproj qp pref s ne re G.
Proof.
  intros Ht Hb. unfold Om_dualproj, dualproj_weights.
  rewrite length_mscale, reg_norm_gramian_scale by assumption. reflexivity.
Qed.

Lemma Om_upgrad_scale t qp pref s ne re G : 0 < t -> nltb RN (t * s) ne = nltb RN s ne ->
  Om_upgrad qp pref (t * s) ne re (mscaleR (t * t) G) = Om_upgrad qp pref s ne re G.
Proof.
  intros Ht Hb. unfold Om_upgrad, upgrad_weights.
  rewrite length_mscale, reg_norm_gramian_scale by assumption. reflexivity.
Qed.

(* the same QP oracle is asked the same question on both sides *)
Theorem dualproj_homogeneous t qp pref s ne re J : 0 < t ->
  nltb RN (t * s) ne = nltb RN s ne ->
  agg_dualproj RN qp pref (t * s) ne re (mscaleR t J) =
  res_map (vscaleR t) (agg_dualproj RN qp pref s ne re J).
Proof.
  intros Ht Hb. rewrite !gf_dualproj. apply homogeneous_meta_scaled.
  apply Om_dualproj_scale; assumption.
Qed.

Theorem upgrad_homogeneous t qp pref s ne re J : 0 < t ->
  nltb RN (t * s) ne = nltb RN s ne ->
  agg_upgrad RN qp pref (t * s) ne re (mscaleR t J) =
  res_map (vscaleR t) (agg_upgrad RN qp pref s ne re J).
Proof.
  intros Ht Hb. rewrite !gf_upgrad. apply homogeneous_meta_scaled.
  apply Om_upgrad_scale; assumption.
Qed.

(* two solvers, each returning a minimiser of its own program: the programs coincide and the
   regularised minimiser is unique, so the answers coincide *)
Lemma scaled_solver_agrees n t qp qp' s ne re J u : wfmat n J -> 0 < t ->
  0 < s -> nltb RN s ne = false -> nltb RN (t * s) ne = false -> 0 < re ->
  let M := reg_norm_gramian RN (gramR J) s ne re in
  let M' := reg_norm_gramian RN (gramR (mscaleR t J)) (t * s) ne re in
  is_min (length J) M u (qp M u) -> is_min (length J) M' u (qp' M' u) -> qp' M u = qp M u.
Proof.
  intros HJ Ht Hs Hne Hne' Hre M M' Hq Hq'.
  assert (HM : M' = M).
  { unfold M', M. rewrite gram_mscale. apply reg_norm_gramian_scale; congruence. }
  rewrite HM in Hq'. exact (min_unique n J s ne re HJ Hs Hne u _ _ Hre Hq' Hq).
Qed.

(* stronger form: the two sides may use DIFFERENT solvers; it is enough that each returns a minimiser
   of its own program (the kernel contract is_min), reg_eps > 0, and s >= norm_eps on both sides *)
Theorem dualproj_homogeneous_any_solver n t qp qp' pref s ne re J : wfmat n J -> 0 < t ->
  0 < s -> nltb RN s ne = false -> nltb RN (t * s) ne = false -> 0 < re ->
  pref_ok pref (length J) ->
  let m := length J in
  let u := pref_u pref m in
  let M := reg_norm_gramian RN (gramR J) s ne re in
  let M' := reg_norm_gramian RN (gramR (mscaleR t J)) (t * s) ne re in
  is_min m M u (qp M u) -> is_min m M' u (qp' M' u) ->
  agg_dualproj RN qp' pref (t * s) ne re (mscaleR t J) =
  res_map (vscaleR t) (agg_dualproj RN qp pref s ne re J).
Proof.
  intros HJ Ht Hs Hne Hne' Hre Hp m u M M' Hq Hq'.
  rewrite !gf_dualproj. apply homogeneous_meta_scaled.
  rewrite Om_dualproj_scale by congruence. unfold Om_dualproj, dualproj_weights.
  rewrite length_gram, pref_weights_ok by exact Hp.
  cbn [rbind]. f_equal. exact (scaled_solver_agrees n t qp qp' s ne re J u HJ Ht Hs Hne Hne' Hre Hq Hq').
Qed.

Theorem upgrad_homogeneous_any_solver n t qp qp' pref s ne re J : wfmat n J -> 0 < t ->
  0 < s -> nltb RN s ne = false -> nltb RN (t * s) ne = false -> 0 < re ->
  pref_ok pref (length J) ->
  let m := length J in
  let u := pref_u pref m in
  let M := reg_norm_gramian RN (gramR J) s ne re in
  let M' := reg_norm_gramian RN (gramR (mscaleR t J)) (t * s) ne re in
  let ui := fun i => onehotR m i (vget RN u i) in
  (forall i, (i < m)%nat -> is_min m M (ui i) (qp M (ui i))) ->
  (forall i, (i < m)%nat -> is_min m M' (ui i) (qp' M' (ui i))) ->
  agg_upgrad RN qp' pref (t * s) ne re (mscaleR t J) =
  res_map (vscaleR t) (agg_upgrad RN qp pref s ne re J).
Proof.
  intros HJ Ht Hs Hne Hne' Hre Hp m u M M' ui Hq Hq'.
  rewrite !gf_upgrad. apply homogeneous_meta_scaled.
  rewrite Om_upgrad_scale by congruence. unfold Om_upgrad, upgrad_weights.
  rewrite length_gram, pref_weights_ok by exact Hp.
  cbn [rbind]. rewrite length_pref_u by exact Hp. do 2 f_equal.
  apply map_ext_in. intros i Hi. apply in_seq in Hi.
  apply (scaled_solver_agrees n t qp qp' s ne re J (ui i)); [assumption..|apply Hq|apply Hq']; lia.
Qed.

Theorem cagrad_weights_scale t G s ne c w_opt : 0 < t -> nltb RN (t * s) ne = nltb RN s ne ->
  cagrad_weights RN (mscaleR (t * t) G) (t * s) ne c w_opt = cagrad_weights RN G s ne c w_opt.
Proof.
  intros Ht Hb. unfold cagrad_weights. cbv zeta.
  rewrite length_mscale, normalized_gramian_scale by assumption. reflexivity.
Qed.

Theorem cagrad_homogeneous t s ne c w_opt J : 0 < t ->
  nltb RN (t * s) ne = nltb RN s ne ->
  agg_cagrad RN (t * s) ne c w_opt (mscaleR t J) = vscaleR t (agg_cagrad RN s ne c w_opt J).
Proof.
  intros Ht Hb. unfold agg_cagrad. rewrite gram_mscale, cagrad_weights_scale by assumption.
  apply combine_mscale.
Qed.

(* the unit rows do not see a positive factor: the same pseudo-inverse oracle B applies *)
Theorem config_units_mscale t J : 0 < t -> config_units RN (mscaleR t J) = config_units RN J.
Proof.
  intros Ht. rewrite !config_units_cunit. unfold mscale. rewrite map_map.
  apply map_ext. intros r. apply cunit_vscale. exact Ht.
Qed.

Lemma vsum_dot_mscale t u J :
  vsumR (map (fun g => dotR g u) (mscaleR t J)) = t * vsumR (map (fun g => dotR g u) J).
Proof.
  unfold mscale. rewrite map_map. rewrite <- vsum_map_scale. f_equal. apply map_ext. intros g.
  apply dot_vscale_l.
Qed.

Theorem config_homogeneous_fixedB t B pref J :
  agg_config RN B pref (mscaleR t J) = res_map (vscaleR t) (agg_config RN B pref J).
Proof.
  rewrite !agg_config_cunit, length_mscale.
  destruct (pref_weights pref (sum_weights RN (length J)) (length J)) as [w|e];
    cbn [rbind res_map]; [|reflexivity].
  f_equal. rewrite vsum_dot_mscale. symmetry. apply vscale_vscale.
Qed.

Theorem config_homogeneous t B pref J : 0 < t ->
  config_units RN (mscaleR t J) = config_units RN J /\
  agg_config RN B pref (mscaleR t J) = res_map (vscaleR t) (agg_config RN B pref J).
Proof.
  intros Ht. split; [apply config_units_mscale; exact Ht | apply config_homogeneous_fixedB].
Qed.

Lemma krum_dist_scale t G i j : 0 <= t ->
  krum_dist RN (mscaleR (t * t) G) i j = t * krum_dist RN G i j.
Proof.
  intros Ht. unfold krum_dist. rewrite !mget_mscale. rn.
  match goal with |- sqrt ?e = _ =>
    replace e with (t * t * (mget RN G i i + mget RN G j j - INR 2 * mget RN G i j)) by ring end.
  rewrite sqrt_mult_alt by exact (Rle_0_sqr t). rewrite sqrt_square by exact Ht. reflexivity.
Qed.

Lemma mscale_map_map {A B} t (f : A -> B -> R) (l : list A) (l' : list B) :
  mscaleR t (map (fun i => map (fun j => f i j) l') l) = map (fun i => map (fun j => t * f i j) l') l.
Proof.
  unfold mscale. rewrite map_map. apply map_ext. intros i. unfold vscale. rewrite map_map.
  reflexivity.
Qed.

Lemma krum_distances_scale t G : 0 <= t ->
  krum_distances RN (mscaleR (t * t) G) = mscaleR t (krum_distances RN G).
Proof.
  intros Ht. unfold krum_distances. cbv zeta. rewrite length_mscale, mscale_map_map.
  apply map_ext. intros i. apply map_ext. intros j. apply krum_dist_scale. exact Ht.
Qed.

Lemma krum_scores_scale t D nc : 0 < t ->
  krum_scores RN (mscaleR t D) nc = vscaleR t (krum_scores RN D nc).
Proof.
  intros Ht. unfold krum_scores, mscale, vscale. rewrite !map_map. apply map_ext. intros row.
  change (map (nmul RN t) row) with (vscaleR t row). rewrite isort_scale by exact Ht.
  rewrite firstn_vscale, skipn_vscale. apply vsum_vscale.
Qed.

Definition sc_pair (t : R) (p : R * nat) : R * nat := (t * fst p, snd p).

Lemma insert_idx_scale t p l : 0 < t ->
  insert_idx RN (sc_pair t p) (map (sc_pair t) l) = map (sc_pair t) (insert_idx RN p l).
Proof.
  intros Ht. exact (kinsert_map fst (sc_pair t) (fun a b => Rleb_scale t (fst a) (fst b) Ht) p l).
Qed.

Lemma sort_idx_scale t v : 0 < t -> sort_idx RN (vscaleR t v) = map (sc_pair t) (sort_idx RN v).
Proof.
  intros Ht. unfold sort_idx. rewrite length_vscale. unfold vscale. rewrite combine_map_l.
  change (fun p : R * nat => (nmul RN t (fst p), snd p)) with (sc_pair t).
  induction (List.combine v (seq 0 (length v))) as [|p l IH]; [reflexivity|].
  cbn [map fold_right]. rewrite IH. apply insert_idx_scale. exact Ht.
Qed.

(* the selection (ties included: broken by position) is unchanged *)
Lemma smallest_k_scale t k v : 0 < t -> smallest_k RN k (vscaleR t v) = smallest_k RN k v.
Proof.
  intros Ht. unfold smallest_k. rewrite sort_idx_scale by exact Ht.
  rewrite firstn_map, map_map. apply map_ext. intros p. reflexivity.
Qed.

Theorem krum_weights_of_dist_scale t D f k : 0 < t ->
  krum_weights_of_dist RN (mscaleR t D) f k = krum_weights_of_dist RN D f k.
Proof.
  intros Ht. unfold krum_weights_of_dist. cbv zeta.
  rewrite length_mscale, krum_scores_scale, smallest_k_scale by exact Ht. reflexivity.
Qed.

Lemma Om_krum_scale t f k G : 0 < t -> Om_krum f k (mscaleR (t * t) G) = Om_krum f k G.
Proof.
  intros Ht. unfold Om_krum. rewrite length_mscale.
  rewrite krum_distances_scale, krum_weights_of_dist_scale by lra. reflexivity.
Qed.

Theorem krum_homogeneous t f k J : 0 < t ->
  agg_krum RN f k (mscaleR t J) = res_map (vscaleR t) (agg_krum RN f k J).
Proof.
  intros Ht. rewrite !gf_krum. apply homogeneous_meta.
  apply Om_krum_scale. exact Ht.
Qed.

Theorem krum_homogeneous_meta n t f k J : wfmat n J -> 0 < t ->
  agg_krum RN f k (mscaleR t J) = res_map (vscaleR t) (agg_krum RN f k J).
Proof. intros _. apply krum_homogeneous. Qed.

Lemma filter_length_scale k tol lam : 0 < k ->
  length (filter (fun l => nltb RN (k * tol) l) (vscaleR k lam)) =
  length (filter (fun l => nltb RN tol l) lam).
Proof.
  intros Hk. induction lam as [|a lam IH]; [reflexivity|].
  cbn [vscale map filter]. fold (vscaleR k lam). rn. rewrite Rltb_scale by exact Hk.
  destruct (Rltb tol a); cbn [length]; rewrite IH; reflexivity.
Qed.

Lemma last_scale k (l : list R) : last (map (Rmult k) l) 0 = k * last l 0.
Proof.
  induction l as [|x l IH]; [cbn; ring|]. destruct l as [|y l]; [reflexivity|].
  change (last (map (Rmult k) (x :: y :: l)) 0) with (last (map (Rmult k) (y :: l)) 0).
  change (last (x :: y :: l) 0) with (last (y :: l) 0). exact IH.
Qed.

(* eigenvalues and tolerance scaled by k > 0, eigenvectors unchanged: the balance matrix is the same *)
Theorem aligned_balance_scale k lam Vt tol : 0 < k ->
  aligned_balance RN (vscaleR k lam) Vt (k * tol) = aligned_balance RN lam Vt tol.
Proof.
  intros Hk. unfold aligned_balance. cbv zeta.
  rewrite length_vscale, filter_length_scale by exact Hk.
  set (rank := length (filter (fun l => nltb RN tol l) lam)).
  destruct (rank =? 0)%nat; [reflexivity|].
  apply map_ext. intros i. apply map_ext. intros j.
  unfold vscale. rewrite firstn_map. rn. rewrite last_scale, combine_map_l, map_map.
  rewrite sqrt_mult_alt by lra.
  assert (Hsk : 0 < sqrt k) by (apply sqrt_lt_R0; exact Hk).
  set (L := List.combine (firstn rank lam) (firstn rank Vt)).
  rewrite (map_ext _ (fun p : R * list R => / sqrt k *
             (let '(l, v) := p in 1 / sqrt l * (vget RN v i * vget RN v j)))).
  - rewrite vsum_map_scale. set (S := vsumR _). set (r := sqrt (last _ 0)).
    transitivity ((sqrt k * / sqrt k) * (r * S)); [ring|]. rewrite Rinv_r by lra. ring.
  - intros [l v]. cbn [fst snd]. rewrite sqrt_mult_alt by lra. unfold Rdiv. rewrite Rinv_mult. ring.
Qed.

Lemma Om_aligned_scale k lam Vt tol pref G : 0 < k ->
  Om_aligned (vscaleR k lam) Vt (k * tol) pref (mscaleR k G) = Om_aligned lam Vt tol pref G.
Proof.
  intros Hk. unfold Om_aligned. rewrite length_mscale, aligned_balance_scale by exact Hk. reflexivity.
Qed.

Theorem aligned_homogeneous t lam Vt tol pref J : 0 < t ->
  agg_aligned RN (vscaleR (t * t) lam) Vt (t * t * tol) pref (mscaleR t J) =
  res_map (vscaleR t) (agg_aligned RN lam Vt tol pref J).
Proof.
  intros Ht. rewrite !gf_aligned. apply homogeneous_meta_scaled.
  apply Om_aligned_scale. apply Rmult_lt_0_compat; exact Ht.
Qed.

Lemma nabs_scale t x : 0 < t -> nabs RN (t * x) = t * nabs RN x.
Proof.
  intros Ht. unfold nabs. rn. rewrite Rltb_scale_0r by exact Ht. destruct (Rltb x 0); ring.
Qed.

Theorem graddrop_coord_scale t leak col u : 0 < t ->
  graddrop_coord RN leak (vscaleR t col) u = t * graddrop_coord RN leak col u.
Proof.
  intros Ht. rewrite !graddrop_coord_masked. cbv zeta.
  assert (Ha : vsumR (map (nabs RN) (vscaleR t col)) = t * vsumR (map (nabs RN) col)).
  { unfold vscale. rewrite map_map. rewrite <- vsum_map_scale. f_equal. apply map_ext. intros x.
    apply nabs_scale. exact Ht. }
  rewrite Ha, vsum_vscale, Rleb_scale_0r, div_scale by lra.
  apply masked_sum_scale. intros x. rewrite Rltb_scale_0l, Rltb_scale_0r by exact Ht. reflexivity.
Qed.

Theorem graddrop_homogeneous t leak U J : 0 < t ->
  agg_graddrop RN leak U (mscaleR t J) = res_map (vscaleR t) (agg_graddrop RN leak U J).
Proof.
  intros Ht. unfold agg_graddrop. cbv zeta. rewrite length_mscale, ncols_mscale.
  assert (E : forall lk L, map (fun '(j, u) => graddrop_coord RN lk (column RN (mscaleR t J) j) u) L =
                vscaleR t (map (fun '(j, u) => graddrop_coord RN lk (column RN J j) u) L)).
  { intros lk L. unfold vscale. rewrite map_map. apply map_ext. intros [j u].
    rewrite column_mscale. apply graddrop_coord_scale. exact Ht. }
  destruct leak as [l|].
  - destruct (negb (length l =? length J)%nat); [reflexivity|]. cbn [res_map]. f_equal. apply E.
  - cbn [res_map]. f_equal. apply E.
Qed.

Print Assumptions pcgrad_weights_scale.
Print Assumptions pcgrad_homogeneous.
Print Assumptions krum_weights_of_dist_scale.
Print Assumptions krum_homogeneous.
Print Assumptions krum_homogeneous_meta.
Print Assumptions reg_norm_gramian_scale.
Print Assumptions dualproj_homogeneous.
Print Assumptions upgrad_homogeneous.
Print Assumptions dualproj_homogeneous_any_solver.
Print Assumptions upgrad_homogeneous_any_solver.
Print Assumptions cagrad_weights_scale.
Print Assumptions cagrad_homogeneous.
Print Assumptions config_units_mscale.
Print Assumptions config_homogeneous_fixedB.
Print Assumptions config_homogeneous.
Print Assumptions aligned_balance_scale.
Print Assumptions aligned_homogeneous.
Print Assumptions graddrop_coord_scale.
Print Assumptions graddrop_homogeneous.
