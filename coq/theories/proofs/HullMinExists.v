(* The convex hull of finitely many vectors has a minimum-norm point:
   w |-> |w . J|^2 = qf (gram J) w is a quadratic form, hence l1-Lipschitz on the unit box, which
   contains the simplex, and a Lipschitz function attains its minimum on the simplex
   ([simplex_min_exists]; no choice axiom, the only compactness used is [continuity_ab_min]). *)
From Coq Require Import Reals List.
From TJ Require Import NumR Agg.
From TJ.proofs Require Import LinalgR QPProofs C18Proofs MgdaProofs MgdaRateProofs PublishedProofs QPMinExists
  SimplexMinExists.
Import ListNotations.
Local Open Scope R_scope.

Lemma qf_simplex_min m M : (1 <= m)%nat -> symm m M -> has_min (simplex m) (qf M).
Proof.
  intros Hm Hs.
  destruct (qf_lip_box m M (repeat 0 m) (repeat 1 m) Hs (repeat_length _ _)) as (L & HL & Hlip).
  apply (simplex_min_exists m (qf M) L Hm HL).
  intros v v' Hv Hv'. apply Hlip; apply simplex_inbox; assumption.
Qed.

Theorem hull_min_exists : forall n J, wfmat n J -> J <> [] -> exists wstar, hull_min n J wstar.
Proof.
  intros n J HJ Hne.
  destruct (qf_simplex_min _ _ (length_nonnil J Hne) (symm_gram n J HJ))
    as (w & Hw & Hmin).
  exists w. split; [exact Hw|]. intros w' Hw'.
  rewrite <- !(qf_gram n) by first [exact HJ | exact (proj1 Hw) | exact (proj1 Hw')]. exact (Hmin w' Hw').
Qed.

(* the hypothesis [hull_min n J wstar] of the rate and allowance theorems can always be discharged *)
Corollary mgda_fw_rate_unconditional : forall n J K s, wfmat n J -> J <> [] -> 0 <= s ->
  (forall v, length v = length J -> dotR (vmR n v J) (vmR n v J) <= s * s * dotR v v) ->
  exists wstar, hull_min n J wstar /\
    let x := agg_mgda RN 0 K J in
    let xstar := vmR n wstar J in
    dotR x x - dotR xstar xstar <= 8 * (s * s) / (INR K + 2).
Proof.
  intros n J K s HJ Hne Hs Hsing. destruct (hull_min_exists n J HJ Hne) as (wstar & Hmin).
  exists wstar. split; [exact Hmin|]. apply (mgda_fw_rate n J K wstar s); assumption.
Qed.

Corollary mgda_allowance_unconditional : forall n J eps iters s, wfmat n J -> J <> [] ->
  0 <= s -> (forall g, In g J -> dotR g g <= s * s) ->
  exists wstar, hull_min n J wstar /\
    forall i, (i < length J)%nat ->
    let x := agg_mgda RN eps iters J in
    let xstar := vmR n wstar J in
    - s * sqrt (dotR x x - dotR xstar xstar) <= dotR (nth i J []) x.
Proof.
  intros n J eps iters s HJ Hne Hs Hb. destruct (hull_min_exists n J HJ Hne) as (wstar & Hmin).
  exists wstar. split; [exact Hmin|]. intros i Hi.
  apply (mgda_allowance n J eps iters wstar s i); assumption.
Qed.

(* the minimum value is unique, so "the" minimum-norm value of the hull is well defined *)
Lemma hull_min_value_unique n J w1 w2 : hull_min n J w1 -> hull_min n J w2 ->
  dotR (vmR n w1 J) (vmR n w1 J) = dotR (vmR n w2 J) (vmR n w2 J).
Proof. exact (hull_min_same_norm n J w1 w2). Qed.

Print Assumptions hull_min_exists.
Print Assumptions mgda_fw_rate_unconditional.
Print Assumptions mgda_allowance_unconditional.
