(* The autojac model commutes with every map of numbers that preserves 0, 1, + and *, in
   particular with Q2R : Q -> R between the executable instance QN and the instance RN at which
   the theorems are proved. *)
From Coq Require Import List Bool Arith QArith Reals Qreals.
From TJ Require Import Num Linalg NumR NumQ Chunk Autojac Agg.
From TJ.proofs Require Import AutojacBasics EntrySpec C20Proofs.
Import ListNotations.
Local Open Scope nat_scope.

Definition rmap {A B : Type} (f : A -> B) (r : res A) : res B :=
  match r with Ok a => Ok (f a) | Err e => Err e end.

Lemma split_by_map {A B : Type} (f : A -> B) : forall lens v,
  split_by lens (map f v) = map (map f) (split_by lens v).
Proof.
  induction lens as [|n lens IH]; intros v; cbn [split_by map]; [reflexivity|].
  rewrite firstn_map, skipn_map, IH. reflexivity.
Qed.

Lemma combine_map_both {A B C D : Type} (f : A -> C) (g : B -> D) :
  forall (l : list A) (l' : list B),
  combine (map f l) (map g l') = map (fun p => (f (fst p), g (snd p))) (combine l l').
Proof.
  induction l as [|x l IH]; intros l'; [reflexivity|].
  destruct l' as [|y l']; [reflexivity|]. cbn [map combine fst snd]. rewrite IH. reflexivity.
Qed.

Section Hom.
Context {T U : Type} (NT : Num T) (NU : Num U) (phi : T -> U).
Hypothesis phi_0 : phi (n0 NT) = n0 NU.
Hypothesis phi_1 : phi (n1 NT) = n1 NU.
Hypothesis phi_add : forall a b, phi (nadd NT a b) = nadd NU (phi a) (phi b).
Hypothesis phi_mul : forall a b, phi (nmul NT a b) = nmul NU (phi a) (phi b).

Definition mvec (v : list T) : list U := map phi v.
Definition mmat (M : list (list T)) : list (list U) := map mvec M.
Definition mtens (v : @tens T) : @tens U := mkTens (t_batched v) (t_trail v) (mmat (t_rows v)).
Definition mdict (d : @tdict T) : @tdict U :=
  mkDict (dk d) (map (fun kv => (fst kv, mtens (snd kv))) (ditems d)).
Definition mgval (g : @gval T) : @gval U := mkG (g_sid g) (mtens (g_val g)).
Definition mstore (s : @store T) : @store U :=
  mkStore (map (fun kv => (fst kv, mgval (snd kv))) (s_grads s)) (s_freed s) (s_log s) (s_next s).
Definition mprog (P : prog T) : prog U :=
  mkProg U (p_shape P) (fun o i => mmat (p_D P o i)) (p_reach P) (p_req P) (p_expects P) (p_gfn P)
         (p_edge P) (p_next P) (p_acc P) (p_saved P) (p_nnodes P).
Definition mres (r : res (@tdict T)) : res (@tdict U) :=
  match r with Ok d => Ok (mdict d) | Err e => Err e end.
Definition agg_hom (A : list (list T) -> res (list T)) (A' : list (list U) -> res (list U)) : Prop :=
  forall J, A' (mmat J) = match A J with Ok v => Ok (mvec v) | Err e => Err e end.

Definition mret (x : res (@tdict T) * @store T) : res (@tdict U) * @store U :=
  (mres (fst x), mstore (snd x)).

Local Notation mitems := (map (fun kv : tid * @tens T => (fst kv, mtens (snd kv)))).

Lemma mvec_length v : length (mvec v) = length v.
Proof. apply map_length. Qed.

Lemma mvec_vzero n : mvec (vzero NT n) = vzero NU n.
Proof. unfold vzero, mvec. rewrite map_repeat, phi_0. reflexivity. Qed.

Lemma mvec_vones n : mvec (vones NT n) = vones NU n.
Proof. unfold vones, mvec. rewrite map_repeat, phi_1. reflexivity. Qed.

Lemma mvec_onehot : forall n i x, mvec (onehot NT n i x) = onehot NU n i (phi x).
Proof.
  induction n as [|n IH]; intros i x; [reflexivity|].
  destruct i as [|i]; cbn [onehot mvec map].
  - f_equal. apply mvec_vzero.
  - rewrite phi_0. f_equal. apply IH.
Qed.

Lemma mvec_vadd : forall a b, mvec (vadd NT a b) = vadd NU (mvec a) (mvec b).
Proof.
  unfold mvec. induction a as [|x a IH]; intros b; [reflexivity|].
  destruct b as [|y b]; [reflexivity|].
  cbn [vadd map]. rewrite IH, phi_add. reflexivity.
Qed.

Lemma mvec_vscale c v : mvec (vscale NT c v) = vscale NU (phi c) (mvec v).
Proof. unfold vscale, mvec. rewrite !map_map. apply map_ext. intros x. apply phi_mul. Qed.

Lemma mvec_vm n : forall w M, mvec (vm NT n w M) = vm NU n (mvec w) (mmat M).
Proof.
  induction w as [|x w IH]; intros M; [apply mvec_vzero|].
  destruct M as [|r M]; [apply mvec_vzero|].
  cbn [vm mvec mmat map]. rewrite <- IH, <- mvec_vscale. apply mvec_vadd.
Qed.

Lemma mvec_concat M : mvec (concat M) = concat (mmat M).
Proof. apply concat_map. Qed.

Lemma split_by_mvec lens v : split_by lens (mvec v) = mmat (split_by lens v).
Proof. apply split_by_map. Qed.

Lemma nth_mmat r M : nth r (mmat M) [] = mvec (nth r M []).
Proof. change (@nil U) with (mvec []). apply map_nth. Qed.

Lemma nth_mvec r v : nth r (mvec v) (n0 NU) = phi (nth r v (n0 NT)).
Proof. rewrite <- phi_0. apply map_nth. Qed.

Lemma ncols_mmat J : ncols (mmat J) = ncols J.
Proof. destruct J as [|r J]; [reflexivity|]. apply map_length. Qed.

Lemma combine_rows_hom J w : mvec (combine_rows NT J w) = combine_rows NU (mmat J) (mvec w).
Proof. unfold combine_rows. rewrite ncols_mmat. apply mvec_vm. Qed.

Lemma mkTens_hom b t (rU : list (list U)) rT : rU = mmat rT -> mkTens b t rU = mtens (mkTens b t rT).
Proof. intros ->. reflexivity. Qed.

Lemma full_shape_mtens v : full_shape (mtens v) = full_shape v.
Proof. unfold full_shape, mtens, mmat. cbn [t_batched t_rows t_trail]. rewrite map_length. reflexivity. Qed.

Lemma flat_mtens v : flat (mtens v) = mvec (flat v).
Proof. symmetry. apply concat_map. Qed.

Lemma row0_mtens v : row0 (mtens v) = mvec (row0 v).
Proof using Type. apply nth_mmat. Qed.

Lemma nrows_mtens v : nrows (mtens v) = nrows v.
Proof. apply map_length. Qed.

Lemma mtens_empty : mtens empty_tens = empty_tens.
Proof using Type. reflexivity. Qed.

Lemma keys_mitems (items : list (tid * @tens T)) : map fst (mitems items) = map fst items.
Proof using Type. rewrite map_map. apply map_ext. intros kv. reflexivity. Qed.

Lemma dkeys_mdict d : dkeys (mdict d) = dkeys d.
Proof. apply keys_mitems. Qed.

Lemma dget_mdict d k : dget (mdict d) k = option_map mtens (dget d k).
Proof. exact (assoc_map_val (fun _ => mtens) (ditems d) k). Qed.

Lemma dget'_mdict d k : dget' (mdict d) k = mtens (dget' d k).
Proof. unfold dget'. rewrite dget_mdict. destruct (dget d k); reflexivity. Qed.

Lemma sget_mstore s t : sget (mstore s) t = option_map mgval (sget s t).
Proof. exact (assoc_map_val (fun _ => mgval) (s_grads s) t). Qed.

Lemma cots_flat_hom (outs : list tid) d :
  map (fun o => flat (dget' (mdict d) o)) outs = mmat (map (fun o => flat (dget' d o)) outs).
Proof.
  unfold mmat. rewrite map_map. apply map_ext. intros o. rewrite dget'_mdict. apply flat_mtens.
Qed.

Lemma cots_row_hom (outs : list tid) d r :
  map (fun o => nth r (t_rows (dget' (mdict d) o)) []) outs
  = mmat (map (fun o => nth r (t_rows (dget' d o)) []) outs).
Proof.
  unfold mmat. rewrite map_map. apply map_ext. intros o. rewrite dget'_mdict. apply nth_mmat.
Qed.

Section WithProg.
Variable P : prog T.

Lemma pnumel_mprog t : pnumel (mprog P) t = pnumel P t.
Proof using Type. reflexivity. Qed.

Lemma mk_dict_hom k items : mk_dict (mprog P) k (mitems items) = mres (mk_dict P k items).
Proof.
  unfold mk_dict. rewrite map_map.
  rewrite (map_ext _ (fun kv : tid * @tens T => (p_shape P (fst kv), full_shape (snd kv)))).
  - destruct (shapes_ok _ _); reflexivity.
  - intros kv. cbn [fst snd]. rewrite full_shape_mtens. reflexivity.
Qed.

(* the form in which the _compute methods build their result: one entry per element of [l] *)
Lemma mk_dict_map_hom {X : Type} k (key : X -> tid) (fT : X -> @tens T) (fU : X -> @tens U) l :
  (forall x, fU x = mtens (fT x)) ->
  mk_dict (mprog P) k (map (fun x => (key x, fU x)) l)
  = mres (mk_dict P k (map (fun x => (key x, fT x)) l)).
Proof.
  intros H. rewrite <- mk_dict_hom, map_map. f_equal. apply map_ext. intros x.
  cbn [fst snd]. rewrite H. reflexivity.
Qed.

Lemma mret_pair r r' s : r' = mres r -> (r', mstore s) = mret (r, s).
Proof. intros ->. reflexivity. Qed.

Lemma exec_nodes_mprog outs ins : exec_nodes (mprog P) outs ins = exec_nodes P outs ins.
Proof. reflexivity. Qed.

Lemma ag_sweep_hom s outs ins rows batched retain :
  ag_sweep (mprog P) (mstore s) outs ins rows batched retain
  = (fst (ag_sweep P s outs ins rows batched retain),
     mstore (snd (ag_sweep P s outs ins rows batched retain))).
Proof.
  unfold ag_sweep. rewrite exec_nodes_mprog. cbn [mprog p_req p_saved mstore s_freed s_grads s_log s_next].
  destruct (negb _); [reflexivity|].
  destruct (existsb _ _); reflexivity.
Qed.

Lemma vjp_hom : forall outs cots i,
  vjp NU (mprog P) outs (mmat cots) i = mvec (vjp NT P outs cots i).
Proof.
  unfold vjp, mmat. induction outs as [|o outs IH]; intros cots i; [symmetry; apply mvec_vzero|].
  destruct cots as [|c cots]; [symmetry; apply mvec_vzero|].
  cbn [map combine fold_right fst snd]. rewrite IH, mvec_vadd, mvec_vm. reflexivity.
Qed.

Lemma mat_ag_hom outs cots i :
  materialize NU (mprog P) i (ag_value NU (mprog P) outs (mmat cots) i)
  = mvec (materialize NT P i (ag_value NT P outs cots i)).
Proof.
  unfold ag_value. cbn [mprog p_reach].
  destruct (existsb _ outs); cbn [materialize]; [apply vjp_hom | symmetry; apply mvec_vzero].
Qed.

Lemma init_compute_hom vals : init_compute NU (mprog P) vals = mres (init_compute NT P vals).
Proof. apply mk_dict_map_hom. intros v. apply mkTens_hom. rewrite <- mvec_vones. reflexivity. Qed.

Lemma diag_row_hom v r : diag_row NU (mvec v) r = mvec (diag_row NT v r).
Proof. unfold diag_row. rewrite mvec_onehot, mvec_length, nth_mvec. reflexivity. Qed.

Lemma diag_compute_hom c d : diag_compute NU (mprog P) c (mdict d) = mres (diag_compute NT P c d).
Proof.
  unfold diag_compute. destruct c as [|k0 c0]; [reflexivity|].
  cbv zeta. generalize (k0 :: c0). intros c.
  apply mk_dict_map_hom. intros [j k]. apply mkTens_hom.
  rewrite cots_flat_hom, <- mvec_concat, mvec_length. unfold mmat. rewrite !map_map.
  apply map_ext. intros r. rewrite diag_row_hom, split_by_mvec. apply nth_mmat.
Qed.

Lemma select_compute_hom keys d : select_compute (mprog P) keys (mdict d) = mres (select_compute P keys d).
Proof. apply (mk_dict_map_hom (dk d)). intros k. apply dget'_mdict. Qed.

Lemma stack_dicts_hom ds : stack_dicts NU (mprog P) (map mdict ds) = mres (stack_dicts NT P ds).
Proof.
  unfold stack_dicts.
  assert (Ek : flat_map dkeys (map mdict ds) = flat_map dkeys ds).
  { induction ds as [|d ds IH]; [reflexivity|]. cbn [map flat_map]. rewrite IH, dkeys_mdict. reflexivity. }
  rewrite Ek. apply mk_dict_map_hom. intros k. apply mkTens_hom.
  unfold mmat. rewrite !map_map. apply map_ext. intros d.
  rewrite dget_mdict. destruct (dget d k) as [v|]; [apply flat_mtens | symmetry; apply mvec_vzero].
Qed.

Lemma union_dicts_hom ds : union_dicts (mprog P) (map mdict ds) = mres (union_dicts P ds).
Proof.
  unfold union_dicts. rewrite <- mk_dict_hom. f_equal.
  - generalize KEmpty. induction ds as [|d ds IH]; intros k0; [reflexivity | apply IH].
  - induction ds as [|d ds IH]; [reflexivity|]. cbn [map flat_map]. rewrite map_app, IH. reflexivity.
Qed.

Lemma matrixify_compute_hom d : matrixify_compute (mprog P) (mdict d) = mres (matrixify_compute P d).
Proof.
  unfold matrixify_compute. cbn [mdict ditems]. rewrite map_map.
  apply (mk_dict_map_hom _ fst). reflexivity.
Qed.

Lemma reshape_compute_hom d : reshape_compute (mprog P) (mdict d) = mres (reshape_compute P d).
Proof.
  unfold reshape_compute. cbn [mdict ditems]. rewrite map_map.
  apply (mk_dict_map_hom _ fst). reflexivity.
Qed.

Lemma unite_hom ord d : unite ord (mdict d) = mmat (unite ord d).
Proof.
  unfold unite. destruct ord as [|k0 ord0]; [reflexivity|]. generalize (k0 :: ord0). intros ord.
  rewrite dget'_mdict, nrows_mtens. unfold mmat. rewrite map_map. apply map_ext. intros r.
  rewrite cots_row_hom. symmetry. apply mvec_concat.
Qed.

Lemma tadd_hom a b : tadd NU (mtens a) (mtens b) = mtens (tadd NT a b).
Proof.
  apply mkTens_hom. cbn [mtens t_rows]. unfold mmat. generalize (t_rows b).
  induction (t_rows a) as [|x ra IH]; intros rb; [reflexivity|].
  destruct rb as [|y rb]; [reflexivity|].
  cbn [combine map fst snd]. rewrite IH, mvec_vadd. reflexivity.
Qed.

Lemma accumulate_one_hom s kv :
  accumulate_one NU (mstore s) (fst kv, mtens (snd kv)) = mstore (accumulate_one NT s kv).
Proof.
  unfold accumulate_one. cbn [fst snd]. rewrite sget_mstore.
  destruct (sget s (fst kv)) as [g|]; cbn [option_map mgval g_sid g_val]; [|reflexivity].
  rewrite tadd_hom. reflexivity.
Qed.

Lemma expects_all_mprog ks : expects_all (mprog P) ks = expects_all P ks.
Proof. reflexivity. Qed.

Lemma accumulate_compute_hom s d :
  accumulate_compute NU (mprog P) (mstore s) (mdict d) = mret (accumulate_compute NT P s d).
Proof.
  unfold accumulate_compute. rewrite dkeys_mdict, expects_all_mprog.
  destruct (expects_all P (dkeys d)); [|reflexivity].
  unfold mret. cbn [fst snd mdict ditems]. f_equal. generalize s.
  induction (ditems d) as [|kv items IH]; intros s0; [reflexivity|].
  cbn [map fold_left]. rewrite accumulate_one_hom. apply IH.
Qed.

Lemma grad_compute_hom s outs ins retain d :
  grad_compute NU (mprog P) (mstore s) outs ins retain (mdict d)
  = mret (grad_compute NT P s outs ins retain d).
Proof.
  unfold grad_compute. destruct ins as [|i0 ins0]; [apply mret_pair, (mk_dict_hom (dk d) [])|].
  generalize (i0 :: ins0). intros ins. destruct outs as [|o0 outs0].
  - apply mret_pair, (mk_dict_map_hom (dk d)). intros i. apply mkTens_hom.
    rewrite <- mvec_vzero. reflexivity.
  - generalize (o0 :: outs0). intros outs. cbv zeta. rewrite ag_sweep_hom.
    destruct (ag_sweep P s outs ins 1 false retain) as [[u|e] s1]; cbn [fst snd]; [|reflexivity].
    apply mret_pair, (mk_dict_map_hom (dk d)). intros i. apply mkTens_hom.
    rewrite cots_flat_hom, mat_ag_hom. reflexivity.
Qed.

Lemma jac_row_hom outs ins d r :
  jac_row NU (mprog P) outs ins (mdict d) r = mvec (jac_row NT P outs ins d r).
Proof.
  unfold jac_row. rewrite cots_row_hom, mvec_concat. unfold mmat at 2. rewrite map_map.
  f_equal. apply map_ext. intros i. apply mat_ag_hom.
Qed.

Lemma jac_chunks_hom outs ins d : forall plan s,
  jac_chunks NU (mprog P) (mstore s) outs ins (mdict d) plan
  = (rmap mmat (fst (jac_chunks NT P s outs ins d plan)),
     mstore (snd (jac_chunks NT P s outs ins d plan))).
Proof.
  induction plan as [|c plan IH]; intros s; cbn [jac_chunks]; [reflexivity|].
  rewrite ag_sweep_hom.
  destruct (ag_sweep P s outs ins (c_len c) (c_batched c) (c_retain c)) as [[u|e] s1];
    cbn [fst snd]; [|reflexivity].
  rewrite IH.
  destruct (jac_chunks NT P s1 outs ins d plan) as [[rest|e] s2]; cbn [fst snd rmap]; [|reflexivity].
  f_equal. f_equal. unfold mmat. rewrite map_app, map_map. f_equal.
  apply map_ext. intros r. apply jac_row_hom.
Qed.

Lemma jac_compute_hom s outs ins chunk retain d :
  jac_compute NU (mprog P) (mstore s) outs ins chunk retain (mdict d)
  = mret (jac_compute NT P s outs ins chunk retain d).
Proof.
  unfold jac_compute. destruct ins as [|i0 ins0]; [apply mret_pair, (mk_dict_hom (dk d) [])|].
  generalize (i0 :: ins0). intros ins. destruct outs as [|o0 outs0].
  - apply mret_pair, (mk_dict_map_hom (dk d)). intros i. reflexivity.
  - cbv zeta. rewrite dget'_mdict, nrows_mtens. generalize (o0 :: outs0). intros outs.
    destruct (Nat.eqb (max_chunk (nrows (dget' d o0)) chunk) 0); [reflexivity|].
    rewrite jac_chunks_hom.
    destruct (jac_chunks NT P s outs ins d (chunk_plan (nrows (dget' d o0)) chunk retain))
      as [[matrix|e] s1]; cbn [fst snd rmap]; [|reflexivity].
    apply mret_pair, (mk_dict_map_hom (dk d)). intros [j i]. apply mkTens_hom.
    unfold mmat. rewrite !map_map. apply map_ext. intros row.
    rewrite split_by_mvec. apply nth_mmat.
Qed.

Variable A : list (list T) -> res (list T).
Variable A' : list (list U) -> res (list U).
Hypothesis HA : agg_hom A A'.

Lemma aggmat_compute_hom ord d :
  aggmat_compute (mprog P) A' ord (mdict d) = mres (aggmat_compute P A ord d).
Proof.
  unfold aggmat_compute. destruct ord as [|k0 ord0]; [reflexivity|].
  generalize (k0 :: ord0). intros ord. cbv zeta.
  rewrite unite_hom, HA. destruct (A (unite ord d)) as [v|e]; [|reflexivity].
  rewrite mvec_length.
  (* the lengths of the pieces are read off t_trail, which mtens keeps *)
  rewrite (map_ext _ _ (fun k => f_equal (fun v => hd 0 (t_trail v)) (dget'_mdict d k))).
  cbn [mtens t_trail]. destruct (negb _); [reflexivity|].
  rewrite split_by_mvec. unfold mmat. rewrite combine_map_r, map_map.
  apply mk_dict_map_hom. intros [k p]. cbn [fst snd]. rewrite mvec_length. reflexivity.
Qed.

Definition run_hom_at (t : tr) : Prop := forall s d,
  run NU (mprog P) A' t (mstore s) (mdict d) = mret (run NT P A t s d).

Lemma run_list_hom d ts : Forall run_hom_at ts -> forall s,
  run_list NU (mprog P) A' (mdict d) ts (mstore s)
  = (rmap (map mdict) (fst (run_list NT P A d ts s)), mstore (snd (run_list NT P A d ts s))).
Proof.
  intros HF. induction HF as [|t ts Ht HF IH]; intros s; [reflexivity|].
  rewrite !run_list_cons. rewrite (Ht s d).
  destruct (run NT P A t s d) as [[d1|e] s1]; cbn [mret fst snd mres]; [|reflexivity].
  rewrite IH.
  destruct (run_list NT P A d ts s1) as [[ds|e] s2]; reflexivity.
Qed.

Theorem run_hom : forall t, run_hom_at t.
Proof.
  intros t.
  induction t as [vals|c|keys req|ts IH|ts IH|o i IHo IHi|keys|outs ins retain|outs ins chunk retain
                 |keys|ord|keys] using tr_ind'; intros s d;
    (* every case opens with the key check, on the same keys on both sides *)
    rewrite ?run_stack_eq, ?run_conj_eq; cbn [run]; rewrite dkeys_mdict;
    (destruct (negb _); [reflexivity|]).
  - apply mret_pair, init_compute_hom.
  - apply mret_pair, diag_compute_hom.
  - apply mret_pair, select_compute_hom.
  - rewrite (run_list_hom d ts IH s).
    destruct (run_list NT P A d ts s) as [[ds|e] s1]; [|reflexivity].
    apply mret_pair, stack_dicts_hom.
  - rewrite (run_list_hom d ts IH s).
    destruct (run_list NT P A d ts s) as [[ds|e] s1]; [|reflexivity].
    apply mret_pair, union_dicts_hom.
  - rewrite (IHi s d).
    destruct (run NT P A i s d) as [[d1|e] s1]; [apply IHo | reflexivity].
  - apply accumulate_compute_hom.
  - apply grad_compute_hom.
  - apply jac_compute_hom.
  - apply mret_pair, matrixify_compute_hom.
  - apply mret_pair, aggmat_compute_hom.
  - apply mret_pair, reshape_compute_hom.
Qed.

Lemma build_and_run_hom t s d :
  build_and_run NU (mprog P) A' t (mstore s) (mdict d) = mret (build_and_run NT P A t s d).
Proof. unfold build_and_run. destruct (wf t); [apply run_hom | reflexivity]. Qed.

Theorem backward_hom tensors ord k retain s :
  backward_model NU (mprog P) A' tensors ord k retain (mstore s)
  = mret (backward_model NT P A tensors ord k retain s).
Proof.
  unfold backward_model. destruct (negb (valid_chunk k)); [reflexivity|].
  destruct tensors as [|t0 tensors]; [reflexivity | apply (build_and_run_hom _ s empty_dict)].
Qed.

Theorem mtl_hom losses features tasks shared k retain s :
  mtl_backward_model NU (mprog P) A' losses features tasks shared k retain (mstore s)
  = mret (mtl_backward_model NT P A losses features tasks shared k retain s).
Proof.
  rewrite !mtl_backward_model_eq.
  (* the checks read only p_shape and p_expects, which mprog keeps *)
  change (mtl_args_ok (mprog P) losses features tasks shared k retain)
    with (mtl_args_ok P losses features tasks shared k retain).
  destruct (mtl_args_ok P losses features tasks shared k retain);
    [apply (run_hom _ s empty_dict) | reflexivity].
Qed.

End WithProg.

Lemma agg_hom_total (A : list (list T) -> list T) (A' : list (list U) -> list U) :
  (forall J, A' (mmat J) = mvec (A J)) -> agg_hom (fun J => Ok (A J)) (fun J => Ok (A' J)).
Proof. intros H J. cbv beta. rewrite H. reflexivity. Qed.

Lemma agg_constant_hom w : agg_hom (agg_constant NT w) (agg_constant NU (mvec w)).
Proof.
  intros J. unfold agg_constant, weighted, constant_weights, mmat. rewrite mvec_length, map_length.
  destruct (Nat.eqb (length w) (length J)); cbn [rbind]; [|reflexivity].
  rewrite combine_rows_hom. reflexivity.
Qed.

Lemma agg_sum_mmat J : agg_sum NU (mmat J) = mvec (agg_sum NT J).
Proof. unfold agg_sum, mmat at 2. rewrite combine_rows_hom, map_length. f_equal. symmetry. apply mvec_vones. Qed.

Lemma agg_sum_hom : agg_hom (fun J => Ok (agg_sum NT J)) (fun J => Ok (agg_sum NU J)).
Proof. exact (agg_hom_total _ _ agg_sum_mmat). Qed.

End Hom.

Lemma Q2R_Qred q : Q2R (Qred q) = Q2R q.
Proof. apply Qeq_eqR. apply Qred_correct. Qed.

Lemma Q2R_QN_0 : Q2R (n0 QN) = n0 RN.
Proof. cbn [n0 QN RN]. unfold Q2R. cbn [Qnum Qden]. apply Rmult_0_l. Qed.

Lemma Q2R_QN_1 : Q2R (n1 QN) = n1 RN.
Proof. cbn [n1 QN RN]. unfold Q2R. cbn [Qnum Qden]. rewrite Rinv_1. apply Rmult_1_r. Qed.

Lemma Q2R_QN_add : forall a b, Q2R (nadd QN a b) = nadd RN (Q2R a) (Q2R b).
Proof. intros a b. cbn [nadd QN RN]. rewrite Q2R_Qred. apply Q2R_plus. Qed.

Lemma Q2R_QN_mul : forall a b, Q2R (nmul QN a b) = nmul RN (Q2R a) (Q2R b).
Proof. intros a b. cbn [nmul QN RN]. rewrite Q2R_Qred. apply Q2R_mult. Qed.

(* both instances return 0 on division by 0 *)
Lemma Q2R_QN_div : forall a b, Q2R (ndiv QN a b) = ndiv RN (Q2R a) (Q2R b).
Proof.
  intros a b. cbn [ndiv QN RN]. rewrite Q2R_Qred.
  destruct (Qeq_dec b 0) as [E|E].
  - assert (E1 : (a / b == 0)%Q).
    { rewrite E. unfold Qdiv. change (/ 0)%Q with 0%Q. apply Qmult_0_r. }
    rewrite (Qeq_eqR _ _ E1), (Qeq_eqR _ _ E).
    change (Q2R 0) with (Q2R (n0 QN)). rewrite Q2R_QN_0. cbn [n0 RN].
    unfold Rdiv. rewrite Rinv_0, Rmult_0_r. reflexivity.
  - apply Q2R_div. exact E.
Qed.

Lemma Q2R_QN_ofnat : forall n, Q2R (nofnat QN n) = nofnat RN n.
Proof.
  intros n. cbn [nofnat QN RN]. unfold Q2R, inject_Z. cbn [Qnum Qden].
  rewrite INR_IZR_INZ. unfold Rdiv. rewrite Rinv_1. apply Rmult_1_r.
Qed.

Theorem run_Q_to_R : forall (P : prog Q) A A', agg_hom Q2R A A' -> forall t s d,
  run RN (mprog Q2R P) A' t (mstore Q2R s) (mdict Q2R d)
  = (mres Q2R (fst (run QN P A t s d)), mstore Q2R (snd (run QN P A t s d))).
Proof. exact (run_hom QN RN Q2R Q2R_QN_0 Q2R_QN_1 Q2R_QN_add Q2R_QN_mul). Qed.

Theorem backward_Q_to_R : forall (P : prog Q) A A', agg_hom Q2R A A' -> forall tensors ord k retain s,
  backward_model RN (mprog Q2R P) A' tensors ord k retain (mstore Q2R s)
  = (mres Q2R (fst (backward_model QN P A tensors ord k retain s)),
     mstore Q2R (snd (backward_model QN P A tensors ord k retain s))).
Proof. exact (backward_hom QN RN Q2R Q2R_QN_0 Q2R_QN_1 Q2R_QN_add Q2R_QN_mul). Qed.

Theorem mtl_Q_to_R : forall (P : prog Q) A A', agg_hom Q2R A A' ->
  forall losses features tasks shared k retain s,
  mtl_backward_model RN (mprog Q2R P) A' losses features tasks shared k retain (mstore Q2R s)
  = (mres Q2R (fst (mtl_backward_model QN P A losses features tasks shared k retain s)),
     mstore Q2R (snd (mtl_backward_model QN P A losses features tasks shared k retain s))).
Proof. exact (mtl_hom QN RN Q2R Q2R_QN_0 Q2R_QN_1 Q2R_QN_add Q2R_QN_mul). Qed.

Theorem agg_constant_Q_to_R : forall w : list Q,
  agg_hom Q2R (agg_constant QN w) (agg_constant RN (map Q2R w)).
Proof. exact (agg_constant_hom QN RN Q2R Q2R_QN_0 Q2R_QN_add Q2R_QN_mul). Qed.

Theorem agg_sum_Q_to_R :
  agg_hom Q2R (fun J => Ok (agg_sum QN J)) (fun J => Ok (agg_sum RN J)).
Proof. exact (agg_sum_hom QN RN Q2R Q2R_QN_0 Q2R_QN_1 Q2R_QN_add Q2R_QN_mul). Qed.

Theorem agg_mean_Q_to_R :
  agg_hom Q2R (fun J => Ok (agg_mean QN J)) (fun J => Ok (agg_mean RN J)).
Proof.
  apply agg_hom_total. intros J. unfold agg_mean, mmat at 2.
  rewrite (combine_rows_hom QN RN Q2R Q2R_QN_0 Q2R_QN_add Q2R_QN_mul), map_length. f_equal.
  unfold mean_weights, mvec. rewrite map_repeat, Q2R_QN_div, Q2R_QN_1, Q2R_QN_ofnat. reflexivity.
Qed.

Print Assumptions run_hom.
Print Assumptions backward_hom.
Print Assumptions mtl_hom.
Print Assumptions agg_constant_hom.
Print Assumptions agg_sum_hom.
Print Assumptions backward_Q_to_R.
Print Assumptions mtl_Q_to_R.
Print Assumptions run_Q_to_R.
Print Assumptions agg_constant_Q_to_R.
Print Assumptions agg_sum_Q_to_R.
Print Assumptions agg_mean_Q_to_R.
