From Coq Require Import Reals List Bool Arith Lia.
From TJ Require Import Num Linalg NumR Chunk Autojac.
From TJ.proofs Require Import AutojacBasics AutojacSpec EntrySpec C20Proofs C01Proofs.
Import ListNotations.
Local Open Scope R_scope.

(* What an accepted mtl_backward call deposits in the .grad fields.  One task transform is
   inverted stage by stage, the members of the Stack by induction on the store they thread; Jac on
   the stacked rows and the tail Accumulate . Aggregate are those of C01Proofs. *)

Lemma dedup_app_absorb (a b : list nat) :
  (forall x, In x a -> In x b) -> dedup (a ++ b) = dedup b.
Proof.
  unfold dedup. induction a as [|x a IH]; intros H; [reflexivity|].
  cbn [app nodup]. destruct (in_dec Nat.eq_dec x (a ++ b)) as [Hin|Hn].
  - apply IH. intros y Hy. apply H. right. exact Hy.
  - exfalso. apply Hn. apply in_or_app. right. apply H. left. reflexivity.
Qed.

Lemma dedup_repeat_keys {X} (l : list nat) (ls : list X) :
  NoDup l -> ls <> [] -> dedup (flat_map (fun _ => l) ls) = l.
Proof.
  intros Hnd. induction ls as [|x ls IH]; intros Hne; [congruence|].
  cbn [flat_map]. destruct ls as [|y ls'].
  - cbn [flat_map]. rewrite app_nil_r. apply dedup_id. exact Hnd.
  - rewrite dedup_app_absorb.
    + apply IH. discriminate.
    + intros z Hz. cbn [flat_map]. apply in_or_app. left. exact Hz.
Qed.

Section C02.
Variable P : prog R.
Variable A : list (list R) -> res (list R).

Lemma init_grad_run loss ins retain s d1 s1 :
  wf_prog P -> p_shape P loss = [] -> ins <> [] ->
  run RN P A (TComp (TGrad [loss] ins retain) (TInit [loss])) s empty_dict = (Ok d1, s1) ->
  s_grads s1 = s_grads s /\
  d1 = mkDict KGradients (map (fun i => (i, plain (p_shape P i) (grad_of P loss i))) ins).
Proof.
  intros Hwf Hsh Hne H.
  split; [eapply (no_acc_grads RN P A); [|exact H]; reflexivity|].
  assert (H1n : pnumel P loss = 1%nat) by (unfold pnumel; rewrite Hsh; reflexivity).
  apply run_comp_inv in H. destruct H as (d0 & s0 & H0 & H1).
  apply run_init_inv in H0. destruct H0 as [-> ->].
  apply run_grad_inv in H1; [|discriminate|exact Hne]. destruct H1 as [_ ->].
  cbn [dk map]. f_equal. apply map_ext. intros i. rewrite materialize_vjp by exact Hwf.
  (* the cotangent that Init hands over for a scalar loss is [[1]] *)
  rewrite dget'_items by (apply dedup_In; left; reflexivity). rewrite flat_plain, H1n.
  rewrite <- (vjp_scalar_loss P loss i Hwf H1n). reflexivity.
Qed.

Lemma conj_run features ps d s1 dt st :
  run RN P A (TConj [TSelect features (ps ++ features);
                     TComp (TAccumulate ps) (TSelect ps (ps ++ features))]) s1 d = (Ok dt, st) ->
  ditems dt = map (fun f => (f, dget' d f)) (dedup features) /\
  st = fold_left (accumulate_one RN) (map (fun q => (q, dget' d q)) (dedup ps)) s1.
Proof.
  intros H. apply run_conj_inv in H. destruct H as (ds & Hl & Hu).
  apply run_list_ok_cons in Hl. destruct Hl as (da & sa & ds1 & Ea & Hl & ->).
  apply run_list_ok_cons in Hl. destruct Hl as (db & sb & ds2 & Eb & Hl & ->).
  rewrite run_list_nil in Hl. injection Hl as <- <-.
  apply run_select_inv in Ea. destruct Ea as [-> ->].
  apply run_comp_inv in Eb. destruct Eb as (dc & sc & Ec & Eacc).
  apply run_select_inv in Ec. destruct Ec as [-> ->].
  apply run_accumulate_inv in Eacc. destruct Eacc as (_ & -> & ->).
  apply mk_dict_ok in Hu. subst dt. cbn [ditems flat_map]. rewrite !app_nil_r.
  split; reflexivity.
Qed.

Lemma task_run features ps loss retain s dt st :
  wf_prog P -> features <> [] -> NoDup (ps ++ features) -> p_shape P loss = [] ->
  run RN P A (task_transform features ps loss retain) s empty_dict = (Ok dt, st) ->
  ditems dt = map (fun f => (f, plain (p_shape P f) (grad_of P loss f))) features /\
  (forall q, grad_val st q
             = if mem q ps
               then Some (acc_val (grad_val s q) (plain (p_shape P q) (grad_of P loss q)))
               else grad_val s q) /\
  (forall t, ~ In t ps -> sget st t = sget s t).
Proof.
  intros Hwf Hfe Hnd Hsh H. unfold task_transform in H.
  apply run_comp_inv in H. destruct H as (d1 & s1 & H1 & H2).
  apply init_grad_run in H1; [|exact Hwf|exact Hsh|].
  2:{ intros E. apply app_eq_nil in E. destruct E as [_ E]. exact (Hfe E). }
  destruct H1 as [Hg Hd1].
  apply conj_run in H2. destruct H2 as [Hdt ->].
  rewrite (dedup_id _ (NoDup_app_r _ _ Hnd)) in Hdt. rewrite (dedup_id _ (NoDup_app_l _ _ Hnd)).
  assert (Hget : forall i, In i (ps ++ features) ->
                   dget' d1 i = plain (p_shape P i) (grad_of P loss i)).
  { intros i Hi. rewrite Hd1. exact (dget'_items _ _ _ i Hi). }
  rewrite (map_ext_in _ (fun q => (q, plain (p_shape P q) (grad_of P loss q))) ps)
    by (intros q Hq; rewrite (Hget q (in_or_app _ _ _ (or_introl Hq))); reflexivity).
  destruct (accumulate_items (fun q => plain (p_shape P q) (grad_of P loss q)) ps s1
              (NoDup_app_l _ _ Hnd)) as [Hin Hout].
  split.
  { rewrite Hdt. apply map_ext_in. intros f Hf.
    rewrite (Hget f (in_or_app _ _ _ (or_intror Hf))). reflexivity. }
  split.
  - intros q. destruct (mem q ps) eqn:Em.
    + apply mem_In in Em. rewrite (Hin q Em), (grad_val_grads_eq s1 s q Hg). reflexivity.
    + apply mem_false in Em. unfold grad_val.
      rewrite (Hout q Em), (sget_grads_eq s1 s q Hg). reflexivity.
  - intros t Ht. rewrite (Hout t Ht). apply sget_grads_eq. exact Hg.
Qed.

Lemma tasks_run features retain : forall tl s ds s1,
  wf_prog P -> features <> [] ->
  (forall ps l, In (ps, l) tl -> NoDup (ps ++ features) /\ p_shape P l = []) ->
  run_list RN P A empty_dict
    (map (fun pl => task_transform features (fst pl) (snd pl) retain) tl) s = (Ok ds, s1) ->
  map ditems ds
  = map (fun pl => map (fun f => (f, plain (p_shape P f) (grad_of P (snd pl) f))) features) tl /\
  (forall q, grad_val s1 q
     = fold_left (fun g pl => if mem q (fst pl)
                              then Some (acc_val g (plain (p_shape P q) (grad_of P (snd pl) q)))
                              else g) tl (grad_val s q)) /\
  (forall t, ~ In t (concat (map fst tl)) -> sget s1 t = sget s t).
Proof.
  induction tl as [|[ps l] tl IH]; intros s ds s1 Hwf Hfe Hall H; cbn [map] in H.
  - rewrite run_list_nil in H. injection H as <- <-.
    split; [reflexivity|]. split; intros; reflexivity.
  - apply run_list_ok_cons in H. destruct H as (dt & st & ds' & Et & El & ->).
    cbn [fst snd] in Et.
    destruct (Hall ps l (or_introl eq_refl)) as [Hnd Hsh].
    destruct (task_run features ps l retain s dt st Hwf Hfe Hnd Hsh Et) as (Hd & Hq & Ht).
    destruct (IH st ds' s1 Hwf Hfe (fun ps' l' Hin => Hall ps' l' (or_intror Hin)) El)
      as (Hds & Hq' & Ht').
    split; [cbn [map snd]; rewrite Hd, Hds; reflexivity|]. split.
    + intros q. cbn [fold_left fst snd]. rewrite Hq', Hq. reflexivity.
    + intros t Hn. cbn [map concat fst] in Hn. rewrite Ht', Ht.
      * reflexivity.
      * intros Hin. apply Hn. apply in_or_app. left. exact Hin.
      * intros Hin. apply Hn. apply in_or_app. right. exact Hin.
Qed.

Lemma stack_keys {X} (g : X -> tid -> @tens R) features (ds : list (@tdict R)) (ls : list X) :
  ls <> [] -> NoDup features ->
  map ditems ds = map (fun l => map (fun f => (f, g l f)) features) ls ->
  dedup (flat_map dkeys ds) = features.
Proof.
  intros Hne Hnd Hmap. rewrite flat_map_concat_map.
  replace (map dkeys ds) with (map (map fst) (map ditems ds)) by (rewrite map_map; reflexivity).
  rewrite Hmap, map_map.
  rewrite (map_ext _ (fun _ : X => features) (fun l => keys_of_items (g l) features)).
  rewrite <- flat_map_concat_map. apply dedup_repeat_keys; assumption.
Qed.

Lemma stack_of_tasks features (ds : list (@tdict R)) (ls : list tid) dS :
  ls <> [] -> NoDup features ->
  map ditems ds
  = map (fun l => map (fun f => (f, plain (p_shape P f) (grad_of P l f))) features) ls ->
  stack_dicts RN P ds = Ok dS ->
  dk dS = KJacobians /\
  forall f, In f features -> t_rows (dget' dS f) = map (fun l => grad_of P l f) ls.
Proof.
  intros Hne Hnd Hmap H. apply mk_dict_ok in H. subst dS.
  split; [reflexivity|]. intros f Hf.
  rewrite (stack_keys (fun l f0 => plain (p_shape P f0) (grad_of P l f0)) features ds ls Hne Hnd Hmap).
  rewrite (dget'_items _ KJacobians features f Hf). cbn [t_rows].
  (* [dget] reads the items only; some kind is written so that dget_items applies below *)
  transitivity (map (fun it => match dget (mkDict KGradients it) f with
                               | Some v => flat v
                               | None => vzero RN (pnumel P f)
                               end) (map ditems ds)).
  { rewrite map_map. reflexivity. }
  rewrite Hmap, map_map. apply map_ext. intros l. rewrite dget_items by exact Hf.
  apply flat_plain.
Qed.

Lemma jac_run_mtl features shared k retain s dS d2 s2 ls :
  wf_prog P -> features <> [] -> shared <> [] -> valid_chunk k = true ->
  dk dS = KJacobians ->
  (forall f, In f features -> t_rows (dget' dS f) = map (fun l => grad_of P l f) ls) ->
  run RN P A (TJac features shared k retain) s dS = (Ok d2, s2) ->
  s_grads s2 = s_grads s /\
  d2 = jac_dict P shared (mtl_matrix P features shared ls).
Proof.
  intros Hwf Hfe Hse Hk Hdk Hrows H.
  split; [exact (no_acc_grads RN P A (TJac features shared k retain) _ _ _ _ eq_refl H)|].
  apply (jac_stage P A _ _ _ _ _ _ _ _ (length ls)) in H; try assumption.
  - rewrite H, Hdk. unfold jac_dict, mtl_matrix. f_equal.
    rewrite <- (map_seq_nth_f (mtl_row P features shared) O ls).
    apply map_ext_in. intros r Hr. apply in_seq in Hr. rewrite jac_row_vjp by exact Hwf.
    unfold mtl_row. f_equal. apply map_ext. intros p. f_equal.
    apply map_ext_in. intros f Hf. rewrite Hrows by exact Hf.
    rewrite (nth_map_lt _ ls r [] O) by lia. reflexivity.
  - unfold nrows. rewrite Hrows; [apply map_length|].
    destruct features as [|f0 fs]; [congruence | left; reflexivity].
Qed.

Lemma stack_run losses features tasks retain s dS s1 :
  wf_prog P -> features <> [] -> NoDup features -> losses <> [] -> length losses = length tasks ->
  (forall l, In l losses -> p_shape P l = []) ->
  (forall ps l, In (ps, l) (combine tasks losses) -> NoDup (ps ++ features)) ->
  run RN P A (TStack (map (fun pl => task_transform features (fst pl) (snd pl) retain)
                          (combine tasks losses))) s empty_dict = (Ok dS, s1) ->
  dk dS = KJacobians /\
  (forall f, In f features -> t_rows (dget' dS f) = map (fun l => grad_of P l f) losses) /\
  (forall q, grad_val s1 q = task_updates P tasks losses q (grad_val s q)) /\
  (forall t, ~ In t (concat tasks) -> sget s1 t = sget s t).
Proof.
  intros Hwf Hfe Hnf Hle Hlen Hsh Hnt Hst.
  apply run_stack_inv in Hst. destruct Hst as (ds & Hl & Hsd).
  apply tasks_run in Hl; [|exact Hwf|exact Hfe|].
  2:{ intros ps l Hin. split; [exact (Hnt ps l Hin)|].
      apply Hsh. apply in_combine_r in Hin. exact Hin. }
  destruct Hl as (Hds & Hq & Ht).
  rewrite (map_fst_combine tasks losses (eq_sym Hlen)) in Ht.
  assert (Hds' : map ditems ds
    = map (fun l => map (fun f => (f, plain (p_shape P f) (grad_of P l f))) features) losses).
  { rewrite Hds. rewrite <- (map_snd_combine tasks losses (eq_sym Hlen)) at 2.
    rewrite map_map. reflexivity. }
  destruct (stack_of_tasks features ds losses dS Hle Hnf Hds' Hsd) as [Hdk Hrows].
  split; [exact Hdk|]. split; [exact Hrows|]. split; [exact Hq | exact Ht].
Qed.

(* what an accepted mtl_backward call deposits, with or without shared parameters: the tail
   starts from the store the tasks left; the Jac stage leaves its .grad fields as they are, and
   they differ from those of s only on the task-specific parameters *)
Lemma mtl_deposit_any : forall losses features tasks shared k retain s d' s',
  wf_prog P ->
  mtl_backward_model RN P A losses features tasks shared k retain s = (Ok d', s') ->
  (shared <> [] ->
   exists v, A (mtl_matrix P features shared losses) = Ok v /\ length v = total P shared /\
     forall p, In p shared ->
       grad_val s' p = Some (acc_val (grad_val s p) (plain (p_shape P p) (slice_of P shared v p)))) /\
  (forall q, In q (concat tasks) -> grad_val s' q = task_updates P tasks losses q (grad_val s q)) /\
  (forall t, ~ In t (shared ++ concat tasks) -> sget s' t = sget s t).
Proof.
  intros losses features tasks shared k retain s d' s' Hwf H.
  apply mtl_ok_inv in H. destruct H as [Hok H].
  apply mtl_args_ok_spec in Hok.
  destruct Hok as (Hk & Hfe & Hsep & Hsh & Hle & Hlen & _ & Hnf & Hns & Hnt).
  apply pipeline_inv in H.
  destruct H as (dS & s1 & d2 & s2 & d5 & s5 & Hst & Hjac & Hagg & Hacc).
  destruct (stack_run losses features tasks retain s dS s1 Hwf Hfe Hnf Hle Hlen Hsh Hnt Hst)
    as (Hdk & Hrows & Hq & Ht).
  assert (Hdisj : forall x, In x (concat tasks) -> ~ In x shared).
  { intros x Hx. apply in_concat in Hx. destruct Hx as (ps & Hps & Hx). exact (Hsep x ps Hps Hx). }
  destruct (list_eq_dec Nat.eq_dec shared []) as [->|Hse].
  - apply run_jac_noins in Hjac. destruct Hjac as [-> _].
    rewrite (tail_nil P A _ _ _ _ _ _ Hagg Hacc).
    split; [intros H; destruct (H eq_refl)|]. split; [intros q _; apply Hq | exact Ht].
  - apply (jac_run_mtl features shared k retain s1 dS d2 s2 losses) in Hjac; try assumption.
    destruct Hjac as [Hg ->].
    destruct (tail_run P A _ _ _ shared _ s2 d5 s5 d' s' Hns Hse
                (wfmat_mtl_matrix P features shared losses Hwf) (fun _ => eq_refl) Hagg Hacc)
      as (v & HA & Hlv & Hin & Hout).
    split; [|split].
    + intros _. exists v. split; [exact HA|]. split; [exact Hlv|].
      intros p Hp. rewrite (Hin p Hp), (grad_val_grads_eq s2 s1 p Hg). unfold grad_val.
      rewrite Ht; [reflexivity|]. intros Hc. exact (Hdisj p Hc Hp).
    + intros q Hc. unfold grad_val at 1. rewrite Hout by (intros Hs; exact (Hdisj q Hc Hs)).
      fold (grad_val s2 q). rewrite (grad_val_grads_eq s2 s1 q Hg). apply Hq.
    + intros t Hn. rewrite Hout by (intros Hs; apply Hn; apply in_or_app; left; exact Hs).
      rewrite (sget_grads_eq s2 s1 t Hg). apply Ht.
      intros Hc. apply Hn. apply in_or_app. right. exact Hc.
Qed.

(* property C02: every shared parameter receives its own slice of A(M), row i of M being the
   gradient of losses[i] w.r.t. the shared parameters back-propagated THROUGH the features; every
   task-specific parameter, for each task that lists it (in task order), the gradient of that
   task's loss w.r.t. it; nothing else changes *)
Lemma mtl_deposit : forall losses features tasks shared k retain s d' s',
  wf_prog P -> shared <> [] ->
  mtl_backward_model RN P A losses features tasks shared k retain s = (Ok d', s') ->
  exists v, A (mtl_matrix P features shared losses) = Ok v /\ length v = total P shared /\
    (forall p, In p shared ->
       grad_val s' p = Some (acc_val (grad_val s p) (plain (p_shape P p) (slice_of P shared v p)))) /\
    (forall q, In q (concat tasks) -> grad_val s' q = task_updates P tasks losses q (grad_val s q)) /\
    (forall t, ~ In t (shared ++ concat tasks) -> sget s' t = sget s t).
Proof.
  intros losses features tasks shared k retain s d' s' Hwf Hse H.
  destruct (mtl_deposit_any losses features tasks shared k retain s d' s' Hwf H) as (Hs & Hq & Hout).
  destruct (Hs Hse) as (v & HA & Hlv & Hin).
  exists v. split; [exact HA|]. split; [exact Hlv|]. split; [exact Hin|]. split; [exact Hq | exact Hout].
Qed.

Lemma mtl_no_shared : forall losses features tasks k retain s d' s',
  wf_prog P ->
  mtl_backward_model RN P A losses features tasks [] k retain s = (Ok d', s') ->
  (forall q, In q (concat tasks) -> grad_val s' q = task_updates P tasks losses q (grad_val s q)) /\
  (forall t, ~ In t (concat tasks) -> sget s' t = sget s t).
Proof.
  intros losses features tasks k retain s d' s' Hwf H.
  exact (proj2 (mtl_deposit_any losses features tasks [] k retain s d' s' Hwf H)).
Qed.

End C02.

Print Assumptions mtl_deposit.
Print Assumptions mtl_no_shared.
