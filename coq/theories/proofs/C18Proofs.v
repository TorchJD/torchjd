(* The probability simplex and its elementary facts.  C18: MGDA's simplex invariant, Random,
   GradDrop, PCGrad (the weight-level code computes the vector-level definition), CAGrad (distance
   to the mean row). *)
From Coq Require Import Reals List Bool Lia Lra Permutation.
From TJ Require Import Num Linalg NumR Agg.
From TJ.proofs Require Import LinalgR QPProofs.
Import ListNotations.
Local Open Scope R_scope.

Definition simplex (m : nat) (a : list R) : Prop := length a = m /\ nonneg a /\ vsumR a = 1.

Lemma simplex_mean m : (1 <= m)%nat -> simplex m (mean_weights RN m).
Proof.
  intros Hm. split; [apply length_mean|]. unfold mean_weights. rn. split.
  - apply nonneg_repeat. apply Rlt_le. apply Rdiv_lt_0_compat; [lra|]. apply lt_0_INR; lia.
  - rewrite vsum_repeat. field. apply not_0_INR. lia.
Qed.

Lemma simplex_onehot m i : (i < m)%nat -> simplex m (onehotR m i 1).
Proof.
  intros Hi. split; [apply length_onehot|]. split; [apply nonneg_onehot; lra | apply vsum_onehot; exact Hi].
Qed.

Lemma simplex_convex m t u w : 0 <= t <= 1 -> simplex m u -> simplex m w ->
  simplex m (vaddR (vscaleR (1 - t) u) (vscaleR t w)).
Proof.
  intros Ht (Hlu & Hnu & Hsu) (Hlw & Hnw & Hsw). split; [|split].
  - rewrite length_vadd; rewrite !length_vscale; congruence.
  - apply nonneg_vadd; apply nonneg_vscale; try lra; assumption.
  - rewrite vsum_vadd by (rewrite !length_vscale; congruence).
    rewrite !vsum_vscale, Hsu, Hsw. lra.
Qed.

Lemma simplex_nonempty m a : simplex m a -> (1 <= m)%nat.
Proof.
  intros (Hl & _ & Hs). destruct a as [|x a]; [cbn in Hs; lra | cbn in Hl; lia].
Qed.

Lemma simplex_pair t : 0 <= t <= 1 -> simplex 2 [1 - t; t].
Proof.
  intros Ht. split; [reflexivity|]. split; [|cbn; lra].
  constructor; [lra|]. constructor; [lra | constructor].
Qed.

Lemma simplex2 w : simplex 2 w -> exists t, w = [1 - t; t] /\ 0 <= t <= 1.
Proof.
  intros (Hl & Hn & Hs). destruct w as [|a [|b [|c w]]]; cbn in Hl; try lia.
  apply Forall_cons_iff in Hn. destruct Hn as [Ha Hn].
  apply Forall_cons_iff in Hn. destruct Hn as [Hb _].
  cbn in Hs. exists b. split; [f_equal; lra | lra].
Qed.

Lemma simplex_cons m t w' : 0 <= t <= 1 -> simplex m w' ->
  simplex (S m) (t :: vscaleR (1 - t) w').
Proof.
  intros Ht (Hl & Hn & Hs). split; [|split].
  - cbn [length]. rewrite length_vscale. congruence.
  - constructor; [lra|]. apply nonneg_vscale; [lra | exact Hn].
  - rewrite vsum_cons, vsum_vscale, Hs. lra.
Qed.

Lemma simplex_cons_inv m t r : (1 <= m)%nat -> simplex (S m) (t :: r) ->
  0 <= t <= 1 /\ exists w', simplex m w' /\ r = vscaleR (1 - t) w'.
Proof.
  intros Hm (Hl & Hn & Hs). injection Hl as Hl. rewrite vsum_cons in Hs.
  apply Forall_cons_iff in Hn. destruct Hn as [Ht0 Hn].
  pose proof (vsum_nonneg r Hn) as Hp.
  split; [lra|].
  destruct (Req_dec t 1) as [E|E].
  - exists (onehotR m 0 1). split; [apply simplex_onehot; lia|].
    rewrite (nonneg_vsum0 r Hn) by lra. rewrite E, (Rminus_diag_eq 1 1 eq_refl), vscale_zero.
    rewrite length_onehot, Hl. reflexivity.
  - assert (Hd : 0 < 1 - t) by lra.
    exists (vscaleR (/ (1 - t)) r). split; [split; [|split]|].
    + rewrite length_vscale. exact Hl.
    + apply nonneg_vscale; [|exact Hn]. apply Rlt_le, Rinv_0_lt_compat. exact Hd.
    + rewrite vsum_vscale. replace (vsumR r) with (1 - t) by lra. apply Rinv_l. lra.
    + apply (nth_ext _ _ 0 0); [rewrite !length_vscale; reflexivity|].
      intros i _. rewrite !nth_vscale, <- Rmult_assoc, Rinv_r by lra. symmetry. apply Rmult_1_l.
Qed.

Lemma simplex_dot_ge_min m w v : simplex m w -> length v = m ->
  nth (argmin RN v) v 0 <= dotR w v.
Proof.
  intros (Hl & Hn & Hs) Hv.
  pose proof (dot_lower_bound w v _ Hn ltac:(congruence) (argmin_min v)) as H.
  rewrite Hs in H. lra.
Qed.

Lemma simplex_dot_self_le1 m a : simplex m a -> dotR a a <= 1.
Proof.
  intros (_ & Hn & Hs). pose proof (dot_self_le_vsum_sq a Hn) as H. rewrite Hs in H. lra.
Qed.

Lemma simplex_diff_sq m u w : simplex m u -> simplex m w ->
  dotR u u - 2 * dotR u w + dotR w w <= 2.
Proof.
  intros Hu Hw. pose proof (simplex_dot_self_le1 _ _ Hu) as H1.
  pose proof (simplex_dot_self_le1 _ _ Hw) as H2.
  destruct Hu as (_ & Hnu & _). destruct Hw as (_ & Hnw & _).
  pose proof (dot_nonneg u w Hnu Hnw) as H3. lra.
Qed.

(* one Frank-Wolfe step: alpha moves by gamma towards the vertex e_t of the simplex; the step size
   from a = <alpha, G e_t>, b = <alpha, G alpha>, c = <e_t, G e_t> *)
Definition fw_gamma (a b c : R) : R :=
  if Rleb c a then 1 else if Rleb b a then 0 else (b - a) / (b + c - 2 * a).

Lemma mgda_step_eq G alpha :
  mgda_step RN G alpha =
  let e := onehotR (length alpha) (argmin RN (mvR G alpha)) 1 in
  let g := fw_gamma (dotR alpha (mvR G e)) (dotR alpha (mvR G alpha)) (dotR e (mvR G e)) in
  (vaddR (vscaleR (1 - g) alpha) (vscaleR g e), g).
Proof. reflexivity. Qed.

Lemma fw_gamma_range a b c : 0 <= fw_gamma a b c <= 1.
Proof.
  unfold fw_gamma. destruct (Rleb c a) eqn:E1; [lra|]. destruct (Rleb b a) eqn:E2; [lra|].
  apply Rleb_false in E1, E2.
  assert (0 < b + c - 2 * a) by lra. split.
  - apply Rlt_le, Rdiv_lt_0_compat; lra.
  - apply (Rmult_le_reg_r (b + c - 2 * a)); [lra|].
    unfold Rdiv. rewrite Rmult_assoc, Rinv_l by lra. lra.
Qed.

Lemma fw_gamma_scale k a b c : 0 < k -> fw_gamma (k * a) (k * b) (k * c) = fw_gamma a b c.
Proof.
  intros Hk. unfold fw_gamma. rewrite !Rleb_scale by exact Hk.
  destruct (Rleb c a); [reflexivity|]. destruct (Rleb b a); [reflexivity|].
  replace (k * b - k * a) with (k * (b - a)) by ring.
  replace (k * b + k * c - 2 * (k * a)) with (k * (b + c - 2 * a)) by ring.
  apply div_scale. lra.
Qed.

Lemma mgda_step_simplex m G alpha : (1 <= m)%nat -> length G = m -> simplex m alpha ->
  simplex m (fst (mgda_step RN G alpha)).
Proof.
  intros Hm HG Ha. pose proof Ha as (Hl & _). rewrite mgda_step_eq. cbv zeta. cbn [fst]. rewrite Hl.
  apply simplex_convex; [apply fw_gamma_range | exact Ha | apply simplex_onehot].
  rewrite <- HG, <- (length_mv G alpha). apply argmin_lt. intros E.
  apply (f_equal (@length R)) in E. rewrite length_mv in E. cbn in E. lia.
Qed.

Lemma mgda_loop_ind (P : list R -> Prop) G eps :
  (forall a, P a -> P (fst (mgda_step RN G a))) ->
  forall iters a, P a -> P (mgda_loop RN iters G eps a).
Proof.
  intros Hstep. induction iters as [|k IH]; intros a Ha; [exact Ha|]. cbn [mgda_loop].
  specialize (Hstep a Ha). destruct (mgda_step RN G a) as [a' g]. cbn [fst] in Hstep.
  destruct (nltb RN g eps); [exact Hstep | apply IH; exact Hstep].
Qed.

Lemma mgda_loop_simplex m G eps iters alpha : (1 <= m)%nat -> length G = m -> simplex m alpha ->
  simplex m (mgda_loop RN iters G eps alpha).
Proof.
  intros Hm HG. apply (mgda_loop_ind (simplex m)). intros a. apply mgda_step_simplex; assumption.
Qed.

Theorem mgda_weights_simplex G eps iters : (1 <= length G)%nat ->
  simplex (length G) (mgda_weights RN G eps iters).
Proof.
  intros Hm. unfold mgda_weights. apply mgda_loop_simplex; auto. apply simplex_mean; exact Hm.
Qed.

Theorem random_weights_simplex e : e <> [] -> Forall (fun x => 0 < x) e ->
  Forall (fun x => 0 < x) (random_weights RN e) /\ vsumR (random_weights RN e) = 1 /\
  length (random_weights RN e) = length e.
Proof.
  intros Hne He. pose proof (vsum_pos e Hne He) as Hs. unfold random_weights. rn.
  split; [|split].
  - apply Forall_forall. intros y Hy. apply in_map_iff in Hy. destruct Hy as (x & <- & Hx).
    rewrite Forall_forall in He. apply Rdiv_lt_0_compat; auto.
  - rewrite map_div_vscale, vsum_vscale. field. lra.
  - apply map_length.
Qed.

(* one coordinate of GradDrop as a keep-mask sum: entries selected by [keep] count fully, the
   others with their leak *)
Definition masked_sum (keep : R -> bool) (leak col : list R) : R :=
  vsumR (map (fun '(l, x) => (l + (1 - l) * (if keep x then 1 else 0)) * x) (List.combine leak col)).

Lemma masked_sum_ext keep keep' leak col : (forall x, keep x = keep' x) ->
  masked_sum keep leak col = masked_sum keep' leak col.
Proof.
  intros H. unfold masked_sum. f_equal. apply map_ext. intros [l x]. rewrite H. reflexivity.
Qed.

Lemma masked_sum_perm keep leak col leak' col' :
  Permutation (List.combine leak col) (List.combine leak' col') ->
  masked_sum keep leak' col' = masked_sum keep leak col.
Proof. intros Hp. apply vsum_perm. apply Permutation_map. symmetry. exact Hp. Qed.

Lemma masked_sum_zero_col keep : forall leak m, masked_sum keep leak (repeat 0 m) = 0.
Proof.
  unfold masked_sum. induction leak as [|l leak IH]; intros [|m]; try reflexivity.
  cbn [repeat List.combine map]. rewrite vsum_cons, IH, Rmult_0_r. apply Rplus_0_l.
Qed.

Lemma masked_sum_scale keep keep' t leak col : (forall x, keep' (t * x) = keep x) ->
  masked_sum keep' leak (vscaleR t col) = t * masked_sum keep leak col.
Proof.
  intros H. unfold masked_sum. rewrite <- vsum_map_scale. f_equal.
  revert col. induction leak as [|l leak IH]; intros [|x col]; try reflexivity.
  rewrite vscale_cons. cbn [List.combine map]. rewrite IH, H. f_equal. ring.
Qed.

(* the model's mask: the column is not all zero, and the draw falls on the side of the entry's sign *)
Lemma graddrop_coord_masked leak col u :
  let a := vsumR (map (nabs RN) col) in
  let P := (1 / 2) * (1 + vsumR col / a) in
  graddrop_coord RN leak col u =
  masked_sum (fun x => (negb (Rleb a 0) && Rltb u P && Rltb 0 x) ||
                       (negb (Rleb a 0) && Rltb P u && Rltb x 0)) leak col.
Proof. reflexivity. Qed.

Theorem graddrop_coord_cases leak col u :
  let s := vsumR col in let a := vsumR (map (nabs RN) col) in
  let P := (1 / 2) * (1 + s / a) in
  0 < a ->
  (u < P -> graddrop_coord RN leak col u = masked_sum (fun x => Rltb 0 x) leak col) /\
  (P < u -> graddrop_coord RN leak col u = masked_sum (fun x => Rltb x 0) leak col).
Proof.
  intros s a P Ha. rewrite graddrop_coord_masked. cbv zeta. fold s a P.
  rewrite (proj2 (Rleb_false a 0) Ha). cbn [negb andb].
  split; intros H.
  - rewrite (proj2 (Rltb_true u P) H), (proj2 (Rltb_false P u) (Rlt_le _ _ H)). cbn [andb].
    apply masked_sum_ext. intros x. apply orb_false_r.
  - rewrite (proj2 (Rltb_true P u) H), (proj2 (Rltb_false u P) (Rlt_le _ _ H)). reflexivity.
Qed.

(* PCGrad at the level of vectors, as the paper defines it; pcgrad_spec: the code, which works on
   weights and the Gramian, computes the same *)
Fixpoint pc_vec (J : list (list R)) (i : nat) (perm : list nat) (g : list R) : list R :=
  match perm with
  | [] => g
  | j :: perm' =>
      if (j =? i)%nat then pc_vec J i perm' g
      else let gj := nth j J [] in
           let ip := dotR g gj in
           pc_vec J i perm' (if Rltb ip 0 then vsubR g (vscaleR (ip / dotR gj gj) gj) else g)
  end.

Fixpoint pc_outer_vec (J : list (list R)) (i : nat) (perms : list (list nat)) (acc : list R) :=
  match perms with
  | [] => acc
  | perm :: ps => pc_outer_vec J (S i) ps (vaddR acc (pc_vec J i perm (nth i J [])))
  end.

Lemma pc_vec_no_conflict J i perm g :
  Forall (fun j => 0 <= dotR g (nth j J [])) perm -> pc_vec J i perm g = g.
Proof.
  induction 1 as [|j perm Hj Hp IH]; [reflexivity|]. cbn [pc_vec].
  destruct (j =? i)%nat; [exact IH|]. cbv zeta.
  assert (E : Rltb (dotR g (nth j J [])) 0 = false) by (apply Rltb_false; exact Hj).
  rewrite E. exact IH.
Qed.

Lemma length_pcgrad_inner G i perm : forall cw, length (pcgrad_inner RN G i perm cw) = length cw.
Proof.
  induction perm as [|j perm IH]; intros cw; [reflexivity|]. cbn [pcgrad_inner].
  destruct (j =? i)%nat; [apply IH|]. cbv zeta.
  destruct (nltb RN _ _); [|apply IH]. rewrite IH. apply length_vupd.
Qed.

Theorem pcgrad_inner_vec n J i : wfmat n J -> forall perm cw, length cw = length J ->
  Forall (fun j => (j < length J)%nat) perm ->
  vmR n (pcgrad_inner RN (gramR J) i perm cw) J = pc_vec J i perm (vmR n cw J).
Proof.
  intros HJ. induction perm as [|j perm IH]; intros cw Hl Hp; [reflexivity|].
  apply Forall_cons_iff in Hp. destruct Hp as [Hj Hp].
  cbn [pcgrad_inner pc_vec]. destruct (j =? i)%nat; [apply IH; assumption|].
  unfold nth_row. rewrite mget_gram, (dot_gram_row n), dot_comm by assumption. rn.
  set (ip := dotR (vmR n cw J) (nth j J [])).
  destruct (Rltb ip 0).
  - rewrite <- (vm_vupd n J cw j _ Hl Hj). apply IH; [rewrite length_vupd; exact Hl|exact Hp].
  - apply IH; assumption.
Qed.

Theorem pcgrad_outer_vec n J : wfmat n J -> forall perms i acc, length acc = length J ->
  (i + length perms <= length J)%nat ->
  Forall (Forall (fun j => (j < length J)%nat)) perms ->
  vmR n (pcgrad_outer RN (gramR J) (length J) i perms acc) J = pc_outer_vec J i perms (vmR n acc J).
Proof.
  intros HJ. induction perms as [|perm ps IH]; intros i acc Hl Hi Hp; [reflexivity|].
  apply Forall_cons_iff in Hp. destruct Hp as [Hperm Hps]. cbn [length] in Hi.
  cbn [pcgrad_outer pc_outer_vec]. rn.
  assert (El : length (pcgrad_inner RN (gramR J) i perm (onehotR (length J) i 1)) = length J)
    by (rewrite length_pcgrad_inner; apply length_onehot).
  rewrite IH; [|rewrite length_vadd; [exact Hl|rewrite El; exact Hl]|lia|exact Hps].
  rewrite vm_vadd by (rewrite El; exact Hl).
  rewrite (pcgrad_inner_vec n J i HJ perm _ (length_onehot _ _ _) Hperm), vm_onehot by (auto; lia).
  reflexivity.
Qed.

Theorem pcgrad_spec n J perms : wfmat n J -> J <> [] -> (length perms <= length J)%nat ->
  Forall (Forall (fun j => (j < length J)%nat)) perms ->
  agg_pcgrad RN perms J = pc_outer_vec J 0 perms (vzeroR n).
Proof.
  intros HJ Hne Hl Hp. unfold agg_pcgrad, pcgrad_weights.
  rewrite (combine_wf n) by assumption. rewrite length_gram.
  rewrite (pcgrad_outer_vec n J HJ perms 0); auto.
  - rewrite (vm_vzero_any n) by exact HJ. reflexivity.
  - apply length_vzero.
Qed.

Lemma quadform_normalized_big n J s ne w : wfmat n J -> nltb RN s ne = false ->
  length w = length J ->
  quadform RN (normalized_gramian RN (gramR J) s ne) w =
  1 / (s * s) * dotR (vmR n w J) (vmR n w J).
Proof.
  intros HJ Hsne Hw. rewrite normalized_gramian_big by exact Hsne.
  rewrite <- (qf_gram n) by assumption. apply bil_mscale.
Qed.

Lemma cagrad_weights_big G s ne c w :
  let Gn := normalized_gramian RN G s ne in
  let mean := mean_weights RN (length G) in
  nleb RN ne (sqrt (quadform RN Gn w)) = true ->
  cagrad_weights RN G s ne c w =
  vaddR mean (vscaleR (c * sqrt (quadform RN Gn mean) / sqrt (quadform RN Gn w)) w).
Proof. intros Gn mean H. unfold cagrad_weights. rn. fold Gn. rewrite H. reflexivity. Qed.

(* the output of CAGrad above the threshold: g_0 + (c |g_0|_n / |g_w|_n) g_w *)
Lemma cagrad_big_form n J s ne c w_opt : wfmat n J -> J <> [] -> length w_opt = length J ->
  let m := length J in
  let Gn := normalized_gramian RN (gramR J) s ne in
  nleb RN ne (sqrt (quadform RN Gn w_opt)) = true ->
  agg_cagrad RN s ne c w_opt J =
  vaddR (vmR n (mean_weights RN m) J)
        (vscaleR (c * sqrt (quadform RN Gn (mean_weights RN m)) / sqrt (quadform RN Gn w_opt))
                 (vmR n w_opt J)).
Proof.
  intros HJ Hne Hlw m Gn Hbig.
  unfold agg_cagrad. rewrite cagrad_weights_big by exact Hbig. cbv zeta.
  rewrite (combine_wf n), length_gram by assumption. fold m.
  rewrite vm_vadd by (rewrite length_vscale, length_mean; unfold m; congruence).
  rewrite vm_vscale. reflexivity.
Qed.

(* r = c a / b with a^2 = k D0, b^2 = k Dw: then r^2 Dw = c^2 D0 *)
Lemma cagrad_radius k c D0 Dw : 0 < k -> 0 <= D0 -> 0 <= Dw -> 0 < sqrt (k * Dw) ->
  c * sqrt (k * D0) / sqrt (k * Dw) * (c * sqrt (k * D0) / sqrt (k * Dw) * Dw) = c * c * D0.
Proof.
  intros Hk H0 Hw Hb.
  pose proof (sqrt_sqrt (k * D0) (Rmult_le_pos _ _ (Rlt_le _ _ Hk) H0)) as E0.
  pose proof (sqrt_sqrt (k * Dw) (Rmult_le_pos _ _ (Rlt_le _ _ Hk) Hw)) as Ew.
  set (a := sqrt (k * D0)) in *. set (b := sqrt (k * Dw)) in *.
  replace D0 with (a * a / k) by (rewrite E0; field; lra).
  replace Dw with (b * b / k) by (rewrite Ew; field; lra).
  field. lra.
Qed.

Theorem cagrad_distance n J s ne c w_opt : wfmat n J -> J <> [] -> length w_opt = length J ->
  0 < s -> nltb RN s ne = false ->
  let m := length J in
  let g0 := vmR n (mean_weights RN m) J in
  let gw := vmR n w_opt J in
  let Gn := normalized_gramian RN (gramR J) s ne in
  nleb RN ne (sqrt (quadform RN Gn w_opt)) = true -> 0 < ne ->
  let A := agg_cagrad RN s ne c w_opt J in
  let d := vsubR A g0 in
  dotR d d = c * c * dotR g0 g0.
Proof.
  intros HJ Hne Hlw Hs Hsne m g0 gw Gn Hbig Hnepos A d.
  unfold d, A. rewrite (cagrad_big_form n) by assumption. fold m Gn g0 gw.
  rewrite vsub_vadd_cancel
    by (rewrite length_vscale; unfold g0, gw; rewrite !(length_vm n) by exact HJ; reflexivity).
  rewrite dot_vscale_l, dot_vscale_r. unfold Gn in *.
  rewrite (quadform_normalized_big n J s ne _ HJ Hsne Hlw) in *.
  rewrite (quadform_normalized_big n J s ne _ HJ Hsne (length_mean m)).
  apply cagrad_radius; [exact (c_pos s Hs) | apply dot_self_nonneg | apply dot_self_nonneg |].
  apply Rleb_true in Hbig. apply (Rlt_le_trans _ ne); assumption.
Qed.

Theorem cagrad_small n J s ne c w_opt : wfmat n J -> J <> [] ->
  nleb RN ne (sqrt (quadform RN (normalized_gramian RN (gramR J) s ne) w_opt)) = false ->
  agg_cagrad RN s ne c w_opt J = vzeroR n.
Proof.
  intros HJ Hne Hsmall. unfold agg_cagrad, cagrad_weights.
  rewrite (combine_wf n), length_gram by assumption. rn. rewrite Hsmall.
  apply vm_vzero_any. exact HJ.
Qed.

