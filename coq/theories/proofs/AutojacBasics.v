(* Facts about the Autojac model that hold at every number instance and that the other proof
   files share.  What concerns [run] as a whole is in C20Proofs.v. *)
From Coq Require Import List Bool Arith Lia.
From TJ Require Import Num Linalg Chunk Autojac.
From TJ.proofs Require Export ListFacts.
Import ListNotations.

Lemma split_by_length {A} (lens : list nat) (v : list A) : length (split_by lens v) = length lens.
Proof. revert v; induction lens as [|n lens IH]; intros v; cbn; [reflexivity | rewrite IH; reflexivity]. Qed.

Lemma split_by_app {A} n lens (u v : list A) :
  length u = n -> split_by (n :: lens) (u ++ v) = u :: split_by lens v.
Proof.
  intros <-. cbn [split_by]. rewrite firstn_app, Nat.sub_diag, firstn_all, firstn_O, app_nil_r.
  rewrite skipn_app, skipn_all, Nat.sub_diag, skipn_O. reflexivity.
Qed.

Lemma split_by_concat {A} (lens : list nat) (parts : list (list A)) :
  map (@length A) parts = lens -> split_by lens (concat parts) = parts.
Proof.
  intros <-. induction parts as [|p parts IH]; [reflexivity|].
  cbn [map concat]. rewrite split_by_app by reflexivity. rewrite IH. reflexivity.
Qed.

Lemma concat_split_by {A} (lens : list nat) (v : list A) :
  length v = fold_right Nat.add 0 lens -> concat (split_by lens v) = v.
Proof.
  revert v; induction lens as [|n lens IH]; intros v H; cbn in *.
  - destruct v; [reflexivity | discriminate].
  - rewrite IH; [apply firstn_skipn|]. rewrite skipn_length. lia.
Qed.

Lemma map_nth_seq_len {A} (l : list A) (d : A) n : n = length l -> map (fun r => nth r l d) (seq 0 n) = l.
Proof. intros ->. apply map_nth_seq. Qed.

Lemma combine_seq_map_snd {A} (l : list A) : map snd (combine (seq 0 (length l)) l) = l.
Proof. apply map_snd_combine. apply seq_length. Qed.

Lemma nth_error_hd (l : list nat) : l <> [] -> nth_error l 0 = Some (hd O l).
Proof. destruct l as [|x l]; [congruence | reflexivity]. Qed.

Lemma skipn_add {X} a : forall b (l : list X), skipn a (skipn b l) = skipn (b + a) l.
Proof.
  induction b as [|b IH]; intros l; [reflexivity|].
  destruct l as [|x l]; cbn [Nat.add skipn]; [destruct a; reflexivity | apply IH].
Qed.

Lemma mem_In x l : mem x l = true <-> In x l.
Proof.
  unfold mem. rewrite existsb_exists. split.
  - intros (y & Hy & E). apply Nat.eqb_eq in E. subst y. exact Hy.
  - intros H. exists x. split; [exact H | apply Nat.eqb_refl].
Qed.

Lemma mem_false x l : mem x l = false <-> ~ In x l.
Proof. rewrite <- mem_In. destruct (mem x l); split; intro H; congruence. Qed.

Lemma subsetb_spec a b : subsetb a b = true <-> (forall k, In k a -> In k b).
Proof.
  unfold subsetb. rewrite forallb_forall. split; intros H k Hk; apply mem_In, H, Hk.
Qed.

Lemma set_eqb_spec a b : set_eqb a b = true <-> (forall k, In k a <-> In k b).
Proof.
  unfold set_eqb. rewrite andb_true_iff, !subsetb_spec. split.
  - intros [H1 H2] k. split; [apply H1 | apply H2].
  - intros H. split; intros k Hk; apply H; exact Hk.
Qed.

Lemma set_eqb_refl a : set_eqb a a = true.
Proof. apply set_eqb_spec. intros k. reflexivity. Qed.

Lemma set_eqb_congr_r z x y : (forall k, In k x <-> In k y) -> set_eqb z x = set_eqb z y.
Proof.
  intros Hxy. apply eq_true_iff_eq. rewrite !set_eqb_spec. split.
  - intros H k. rewrite (H k). apply Hxy.
  - intros H k. rewrite (H k). symmetry. apply Hxy.
Qed.

Lemma nodupb_spec l : nodupb l = true <-> NoDup l.
Proof.
  induction l as [|x l IH]; cbn [nodupb].
  - split; [intros _; constructor | reflexivity].
  - rewrite andb_true_iff, negb_true_iff, mem_false, IH. symmetry. apply NoDup_cons_iff.
Qed.

Lemma dedup_In x l : In x (dedup l) <-> In x l.
Proof. apply nodup_In. Qed.

Lemma dedup_id l : NoDup l -> dedup l = l.
Proof. apply nodup_fixed_point. Qed.

Lemma set_eqb_dedup_r a : set_eqb a (dedup a) = true.
Proof. apply set_eqb_spec. intros k. symmetry. apply dedup_In. Qed.

Lemma inter_In q a b : In q (inter a b) <-> In q a /\ In q b.
Proof. unfold inter. rewrite filter_In, mem_In. reflexivity. Qed.

Lemma list_eqb_refl l : list_eqb l l = true.
Proof.
  induction l as [|x l IH]; [reflexivity|]. cbn [list_eqb]. rewrite Nat.eqb_refl, IH. reflexivity.
Qed.

Lemma keys_of_items {K X} (g : K -> X) (l : list K) :
  map fst (map (fun q => (q, g q)) l) = l.
Proof. rewrite map_map. cbn [fst]. apply map_id. Qed.

Lemma keys_fst {K X Y} (f : K * X -> Y) (l : list (K * X)) :
  map fst (map (fun kv => (fst kv, f kv)) l) = map fst l.
Proof. rewrite map_map. reflexivity. Qed.

Lemma assoc_map_key {B} (f : nat -> B) (l : list nat) k :
  In k l -> assoc k (map (fun x => (x, f x)) l) = Some (f k).
Proof.
  induction l as [|x l IH]; intros H; [contradiction|]. cbn.
  destruct (Nat.eqb_spec k x) as [->|Hne]; [reflexivity|].
  destruct H as [H|H]; [congruence | exact (IH H)].
Qed.

Lemma assoc_map_key_none {A} (f : nat -> A) (l : list nat) k :
  ~ In k l -> assoc k (map (fun x => (x, f x)) l) = None.
Proof.
  induction l as [|x l IH]; intros H; [reflexivity|]. cbn.
  destruct (Nat.eqb_spec k x) as [->|Hne]; [exfalso; apply H; left; reflexivity|].
  apply IH. intros H'. apply H. right. exact H'.
Qed.

Lemma assoc_map_val {X Y} (g : nat -> X -> Y) (l : list (nat * X)) k :
  assoc k (map (fun kv => (fst kv, g (fst kv) (snd kv))) l) = option_map (g k) (assoc k l).
Proof.
  induction l as [|[k' v] l IH]; [reflexivity|].
  cbn [map assoc fst snd]. destruct (Nat.eqb_spec k k') as [->|Hne]; [reflexivity | exact IH].
Qed.

Lemma assoc_in_keys {X} (l : list (nat * X)) k :
  In k (map fst l) <-> exists v, assoc k l = Some v.
Proof.
  induction l as [|[k' v] l IH]; cbn [assoc map fst In].
  - split; [intros [] | intros [v H]; discriminate H].
  - destruct (Nat.eqb_spec k k') as [->|Hne].
    + split; [intros _; exists v; reflexivity | intros _; left; reflexivity].
    + rewrite <- IH. split; [intros [H|H]; [congruence | exact H] | intros H; right; exact H].
Qed.

Lemma assoc_app {X} k (x y : list (nat * X)) :
  assoc k (x ++ y) = match assoc k x with Some v => Some v | None => assoc k y end.
Proof.
  induction x as [|[k' v] x IH]; cbn [app assoc]; [reflexivity|].
  destruct (k =? k'); [reflexivity | exact IH].
Qed.

Lemma assoc_filter {X} (p : nat -> bool) k (l : list (nat * X)) :
  assoc k (filter (fun kv => p (fst kv)) l) = if p k then assoc k l else None.
Proof.
  induction l as [|[k' v] l IH]; cbn [filter assoc fst].
  - destruct (p k); reflexivity.
  - destruct (Nat.eqb_spec k k') as [->|Hne].
    + destruct (p k'); [cbn [assoc]; rewrite Nat.eqb_refl; reflexivity | exact IH].
    + destruct (p k'); [cbn [assoc]; rewrite (proj2 (Nat.eqb_neq k k') Hne)|]; exact IH.
Qed.

Lemma assoc_indexed {A} (g : nat * nat -> A) (l : list nat) : forall s k j,
  NoDup l -> nth_error l j = Some k ->
  assoc k (map (fun jk => (snd jk, g jk)) (combine (seq s (length l)) l)) = Some (g (s + j, k)).
Proof.
  induction l as [|x l IH]; intros s k j Hnd Hj; [destruct j; discriminate|].
  apply NoDup_cons_iff in Hnd. destruct Hnd as [Hx Hnd'].
  cbn [length seq combine map fst snd assoc].
  destruct (Nat.eqb_spec k x) as [->|Hne].
  - destruct j as [|j]; [rewrite Nat.add_0_r; reflexivity|].
    exfalso. apply Hx. eapply nth_error_In. exact Hj.
  - destruct j as [|j]; [cbn in Hj; congruence|]. cbn in Hj.
    rewrite (IH (S s) k j Hnd' Hj). replace (S s + j) with (s + S j) by lia. reflexivity.
Qed.

Lemma assoc_indexed_none {A} (g : nat * nat -> A) (l : list nat) : forall s k,
  ~ In k l -> assoc k (map (fun jk => (snd jk, g jk)) (combine (seq s (length l)) l)) = None.
Proof.
  induction l as [|x l IH]; intros s k Hk; [reflexivity|].
  cbn [length seq combine map fst snd assoc].
  destruct (Nat.eqb_spec k x) as [->|Hne]; [exfalso; apply Hk; left; reflexivity|].
  apply IH. intros H; apply Hk; right; exact H.
Qed.

Lemma keys_indexed {A} (g : nat * nat -> A) (l : list nat) s :
  map fst (map (fun jk => (snd jk, g jk)) (combine (seq s (length l)) l)) = l.
Proof. rewrite map_map. apply map_snd_combine. apply seq_length. Qed.

Lemma flat_plain {T} sh (v : list T) : flat (plain sh v) = v.
Proof. apply app_nil_r. Qed.

Lemma concat_ones {T} (N : Num T) (f : nat -> nat) (l : list nat) :
  concat (map (fun k => vones N (f k)) l) = vones N (list_sum (map f l)).
Proof.
  unfold vones. induction l as [|x l IH]; [reflexivity|].
  cbn [map concat]. rewrite IH, <- repeat_app. reflexivity.
Qed.

Lemma dget_items {T} (g : tid -> @tens T) kd (l : list tid) k :
  In k l -> dget (mkDict kd (map (fun i => (i, g i)) l)) k = Some (g k).
Proof. intros Hk. exact (assoc_map_key g l k Hk). Qed.

Lemma dget'_items {T} (g : tid -> @tens T) kd (l : list tid) k :
  In k l -> dget' (mkDict kd (map (fun i => (i, g i)) l)) k = g k.
Proof. intros Hk. unfold dget'. rewrite (dget_items g kd l k Hk). reflexivity. Qed.

Lemma dget_items_none {T} (g : tid -> @tens T) kd (l : list tid) k :
  ~ In k l -> dget (mkDict kd (map (fun i => (i, g i)) l)) k = None.
Proof. intros Hk. exact (assoc_map_key_none g l k Hk). Qed.

Lemma dget_indexed {T} (g : nat * tid -> @tens T) kd (l : list tid) j k :
  NoDup l -> nth_error l j = Some k ->
  dget (mkDict kd (map (fun jk => (snd jk, g jk)) (combine (seq 0 (length l)) l))) k = Some (g (j, k)).
Proof. intros Hnd Hj. exact (assoc_indexed g l 0 k j Hnd Hj). Qed.

Lemma dget'_indexed {T} (g : nat * tid -> @tens T) kd (l : list tid) j k :
  NoDup l -> nth_error l j = Some k ->
  dget' (mkDict kd (map (fun jk => (snd jk, g jk)) (combine (seq 0 (length l)) l))) k = g (j, k).
Proof. intros Hnd Hj. unfold dget'. rewrite (dget_indexed g kd l j k Hnd Hj). reflexivity. Qed.

Lemma dkeys_items {T} (g : tid -> @tens T) kd (l : list tid) :
  dkeys (mkDict kd (map (fun i => (i, g i)) l)) = l.
Proof. apply keys_of_items. Qed.

Lemma unite_eq {T} ord (d : @tdict T) : ord <> [] ->
  unite ord d = map (fun r => concat (map (fun k => nth r (t_rows (dget' d k)) []) ord))
                    (seq 0 (nrows (dget' d (hd O ord)))).
Proof. destruct ord as [|k0 ord]; [congruence | reflexivity]. Qed.

Lemma aggmat_compute_eq {T} (P : prog T) A ord (d : @tdict T) : ord <> [] ->
  aggmat_compute P A ord d
  = match A (unite ord d) with
    | Err e => Err e
    | Ok v =>
        let lens := map (fun k => hd O (t_trail (dget' d k))) ord in
        if negb (length v =? fold_right Nat.add O lens)%nat then Err ValueError else
        mk_dict P KGradientVectors
          (map (fun kp => (fst kp, mkTens false [length (snd kp)] [snd kp]))
               (combine ord (split_by lens v)))
    end.
Proof. destruct ord as [|k0 ord']; [congruence | reflexivity]. Qed.

Section Sweep.
Context {T : Type} (P : prog T).

Lemma ag_sweep_eq (s : @store T) outs ins rows b retain :
  ag_sweep P s outs ins rows b retain =
  if forallb (p_req P) outs && forallb (p_req P) ins
     && negb (existsb (fun n => mem n (s_freed s)) (filter (p_saved P) (exec_nodes P outs ins)))
  then (Ok tt, mkStore (s_grads s)
                 (if retain then s_freed s
                  else s_freed s ++ filter (p_saved P) (exec_nodes P outs ins))
                 (mkSweep outs ins rows b retain :: s_log s) (s_next s))
  else (Err RuntimeError, s).
Proof.
  unfold ag_sweep.
  destruct (forallb (p_req P) outs && forallb (p_req P) ins); cbn [negb andb]; [|reflexivity].
  destruct (existsb _ _); reflexivity.
Qed.

Lemma ag_sweep_grads : forall (s : @store T) outs ins rows batched retain r s',
  ag_sweep P s outs ins rows batched retain = (r, s') -> s_grads s' = s_grads s.
Proof.
  intros s outs ins rows batched retain r s'. rewrite ag_sweep_eq.
  destruct (_ && _); intros H; injection H as _ <-; reflexivity.
Qed.

Lemma ag_sweep_next : forall (s : @store T) outs ins rows batched retain r s',
  ag_sweep P s outs ins rows batched retain = (r, s') -> s_next s' = s_next s.
Proof.
  intros s outs ins rows batched retain r s'. rewrite ag_sweep_eq.
  destruct (_ && _); intros H; injection H as _ <-; reflexivity.
Qed.

Lemma ag_sweep_retain_freed : forall (s : @store T) outs ins rows b r s',
  ag_sweep P s outs ins rows b true = (r, s') -> s_freed s' = s_freed s.
Proof.
  intros s outs ins rows b r s'. rewrite ag_sweep_eq.
  destruct (_ && _); intros H; injection H as _ <-; reflexivity.
Qed.
End Sweep.

Section Store.
Context {T : Type} (N : Num T).

Lemma sget_grads_eq (s1 s : @store T) t : s_grads s1 = s_grads s -> sget s1 t = sget s t.
Proof. intros H. unfold sget. rewrite H. reflexivity. Qed.

(* One step of Accumulate on key [k]: an existing .grad is added to in place, a missing one is
   created on the next storage id; every other key, the freed list and the log are left alone. *)
Lemma accumulate_one_adds : forall s k v g,
  sget s k = Some g ->
  sget (accumulate_one N s (k, v)) k = Some (mkG (g_sid g) (tadd N (g_val g) v)).
Proof.
  intros s k v g H. unfold accumulate_one. cbn [fst snd]. rewrite H.
  unfold sget, sset. cbn [s_grads assoc]. rewrite Nat.eqb_refl. reflexivity.
Qed.

Lemma accumulate_one_creates : forall s k v,
  sget s k = None -> sget (accumulate_one N s (k, v)) k = Some (mkG (s_next s) v).
Proof.
  intros s k v H. unfold accumulate_one. cbn [fst snd]. rewrite H.
  unfold sget. cbn [s_grads assoc]. rewrite Nat.eqb_refl. reflexivity.
Qed.

Lemma accumulate_one_at : forall s k v, exists g',
  sget (accumulate_one N s (k, v)) k = Some g' /\
  s_next s <= s_next (accumulate_one N s (k, v)) /\
  match sget s k with
  | Some g => g_sid g' = g_sid g
  | None => g_sid g' = s_next s /\ s_next s < s_next (accumulate_one N s (k, v))
  end.
Proof.
  intros s k v. destruct (sget s k) as [g|] eqn:E.
  - exists (mkG (g_sid g) (tadd N (g_val g) v)). split; [exact (accumulate_one_adds s k v g E)|].
    unfold accumulate_one. cbn [fst snd]. rewrite E. split; [apply Nat.le_refl | reflexivity].
  - exists (mkG (s_next s) v). split; [exact (accumulate_one_creates s k v E)|].
    unfold accumulate_one. cbn [fst snd]. rewrite E.
    split; [apply Nat.le_succ_diag_r|]. split; [reflexivity | apply Nat.lt_succ_diag_r].
Qed.

Lemma sget_accumulate_other (s : @store T) kv t : t <> fst kv ->
  sget (accumulate_one N s kv) t = sget s t.
Proof.
  intros Hne. apply Nat.eqb_neq in Hne. unfold accumulate_one.
  destruct (sget s (fst kv)); unfold sget, sset; cbn [s_grads assoc]; rewrite Hne; reflexivity.
Qed.

Lemma fold_accumulate_other items : forall (s : @store T) t, ~ In t (map fst items) ->
  sget (fold_left (accumulate_one N) items s) t = sget s t.
Proof.
  induction items as [|kv items IH]; intros s t Ht; [reflexivity|].
  cbn [fold_left]. rewrite IH by (intros Hin; apply Ht; right; exact Hin).
  apply sget_accumulate_other. intros ->. apply Ht. left. reflexivity.
Qed.

Lemma accumulate_fold_engine : forall items s,
  s_freed (fold_left (accumulate_one N) items s) = s_freed s /\
  s_log (fold_left (accumulate_one N) items s) = s_log s.
Proof.
  induction items as [|kv items IH]; intros s; cbn [fold_left].
  - split; reflexivity.
  - destruct (IH (accumulate_one N s kv)) as [-> ->].
    unfold accumulate_one. destruct (sget s (fst kv)); split; reflexivity.
Qed.

End Store.

(* [tr] is nested through list: the generated principle has no hypothesis about the members of
   a Stack or Conjunction *)
Section TrInd.
Variable Q : tr -> Prop.
Hypothesis HInit : forall vals, Q (TInit vals).
Hypothesis HDiag : forall c, Q (TDiag c).
Hypothesis HSelect : forall keys req, Q (TSelect keys req).
Hypothesis HStack : forall ts, Forall Q ts -> Q (TStack ts).
Hypothesis HConj : forall ts, Forall Q ts -> Q (TConj ts).
Hypothesis HComp : forall o i, Q o -> Q i -> Q (TComp o i).
Hypothesis HAcc : forall keys, Q (TAccumulate keys).
Hypothesis HGrad : forall outs ins retain, Q (TGrad outs ins retain).
Hypothesis HJac : forall outs ins chunk retain, Q (TJac outs ins chunk retain).
Hypothesis HMat : forall keys, Q (TMatrixify keys).
Hypothesis HAgg : forall ord, Q (TAggMat ord).
Hypothesis HResh : forall keys, Q (TReshape keys).

Fixpoint tr_ind' (t : tr) : Q t :=
  match t with
  | TInit vals => HInit vals
  | TDiag c => HDiag c
  | TSelect keys req => HSelect keys req
  | TStack ts =>
      HStack ts ((fix F (l : list tr) : Forall Q l :=
                    match l with
                    | [] => Forall_nil Q
                    | x :: l' => Forall_cons x (tr_ind' x) (F l')
                    end) ts)
  | TConj ts =>
      HConj ts ((fix F (l : list tr) : Forall Q l :=
                   match l with
                   | [] => Forall_nil Q
                   | x :: l' => Forall_cons x (tr_ind' x) (F l')
                   end) ts)
  | TComp o i => HComp o i (tr_ind' o) (tr_ind' i)
  | TAccumulate keys => HAcc keys
  | TGrad outs ins retain => HGrad outs ins retain
  | TJac outs ins chunk retain => HJac outs ins chunk retain
  | TMatrixify keys => HMat keys
  | TAggMat ord => HAgg ord
  | TReshape keys => HResh keys
  end.
End TrInd.

Section Checks.
Context {T : Type} (N : Num T) (P : prog T) (A : list (list T) -> res (list T)).
Notation run := (run N P A).

Lemma mk_dict_ok k items d : mk_dict P k items = Ok d -> d = mkDict k items.
Proof. unfold mk_dict. destruct (shapes_ok _ _); intros H; [injection H as <-; reflexivity | discriminate H]. Qed.

Lemma mk_dict_keys k items d : mk_dict P k items = Ok d -> dk d = k /\ dkeys d = map fst items.
Proof. intros H. apply mk_dict_ok in H. subst d. split; reflexivity. Qed.

Lemma mk_dict_err k items e : mk_dict P k items = Err e -> e = ValueError.
Proof.
  unfold mk_dict. destruct (shapes_ok _ _); intros H; [discriminate H|].
  injection H as <-. reflexivity.
Qed.

Lemma mk_dict_ok_iff k items :
  (exists d, mk_dict P k items = Ok d) <->
  shapes_ok k (map (fun kv => (p_shape P (fst kv), full_shape (snd kv))) items) = true.
Proof.
  unfold mk_dict. destruct (shapes_ok _ _); split; intros H; try reflexivity.
  - eexists; reflexivity.
  - destruct H as [d H]; discriminate.
  - discriminate.
Qed.

Lemma run_keys_ok t s d r s' :
  run t s d = (Ok r, s') -> set_eqb (dkeys d) (required_keys t) = true.
Proof.
  destruct (set_eqb (dkeys d) (required_keys t)) eqn:E; [reflexivity|].
  destruct t; cbn [run]; rewrite E; cbn [negb]; discriminate.
Qed.

Lemma run_key_fail t s d :
  set_eqb (dkeys d) (required_keys t) = false -> run t s d = (Err ValueError, s).
Proof. intros E. destruct t; cbn [run]; rewrite E; reflexivity. Qed.

End Checks.
