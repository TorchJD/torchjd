(* The walk of Traverse.v (a breadth-first search along gradient edges, some of them excluded)
   returns, once each, the AccumulateGrad nodes in [reach]: the least set that holds the nodes of
   the non-excluded root edges and is closed under non-excluded edges.  [Walk] is the loop
   invariant for the queue and the visited list, [Res] the one for the result.  The fuel suffices
   once it exceeds the length of any list holding the reachable nodes: [visited] is duplicate-free,
   stays among them, and grows by what the queue grows while each iteration pops one node. *)
From Coq Require Import List Bool Arith Lia.
From TJ Require Import Autojac Traverse.
From TJ.proofs Require Import AutojacBasics.
Import ListNotations.

Lemma emem_In : forall e l, emem e l = true <-> In e l.
Proof.
  intros [a b] l. unfold emem. split.
  - intros H. apply existsb_exists in H. destruct H as [[c d] [Hy Hxy]]. cbn [fst snd] in Hxy.
    apply andb_true_iff in Hxy. destruct Hxy as [H1 H2].
    apply Nat.eqb_eq in H1. apply Nat.eqb_eq in H2. subst c d. exact Hy.
  - intros H. apply existsb_exists. exists (a, b). split; [exact H|]. cbn [fst snd].
    rewrite !Nat.eqb_refl. reflexivity.
Qed.

Lemma emem_false : forall e l, emem e l = false <-> ~ In e l.
Proof.
  intros e l. rewrite <- emem_In. destruct (emem e l); split; intro H; congruence.
Qed.

Lemma somes_In : forall {X : Type} (r : X) (l : list (option X)),
  In r (somes l) <-> In (Some r) l.
Proof.
  intros X r l. unfold somes. split.
  - intros H. apply in_flat_map in H. destruct H as [[c|] [Ho Hr]]; [|destruct Hr].
    destruct Hr as [<-|[]]. exact Ho.
  - intros H. apply in_flat_map. exists (Some r). split; [exact H | left; reflexivity].
Qed.

(* the nodes of the edges of [es] that are not excluded: what the walk keeps of the roots, and of
   the children of a node *)
Definition allowed (ex es : list edge) : list nid :=
  map fst (filter (fun e => negb (emem e ex)) es).

Lemma allowed_In : forall ex es x,
  In x (allowed ex es) <-> exists k, In (x, k) es /\ ~ In (x, k) ex.
Proof.
  intros ex es x. unfold allowed. split.
  - intros H. apply in_map_iff in H. destruct H as [[r k] [<- Hf]].
    apply filter_In in Hf. destruct Hf as [Hr Hn]. apply negb_true_iff, emem_false in Hn.
    exists k. split; assumption.
  - intros [k [Hr Hn]]. apply in_map_iff. exists (x, k). split; [reflexivity|].
    apply filter_In. split; [exact Hr|]. apply negb_true_iff, emem_false. exact Hn.
Qed.

Lemma child_In : forall ex cs x,
  In x (allowed ex (somes cs)) <-> exists k, In (Some (x, k)) cs /\ ~ In (x, k) ex.
Proof.
  intros ex cs x. split.
  - intros H. apply allowed_In in H. destruct H as [k [Hc Hex]]. apply somes_In in Hc.
    exists k. split; assumption.
  - intros [k [Hc Hex]]. apply allowed_In. exists k. split; [apply somes_In; exact Hc | exact Hex].
Qed.

Lemma enqueue_spec : forall cs ex q vis, exists new,
  enqueue cs ex q vis = (q ++ new, rev new ++ vis) /\
  (NoDup vis -> NoDup (rev new ++ vis)) /\
  incl new (allowed ex (somes cs)) /\
  (forall x, In x (allowed ex (somes cs)) -> In x vis \/ In x new).
Proof.
  induction cs as [|[[c k]|] cs IH]; intros ex q vis; cbn [enqueue].
  - exists []. rewrite app_nil_r. split; [reflexivity | split; [intro H; exact H | split]].
    + apply incl_refl.
    + intros x [].
  - unfold allowed. cbn [somes flat_map app filter].
    destruct (emem (c, k) ex); cbn [orb negb map fst]; [exact (IH ex q vis)|].
    destruct (mem c vis) eqn:Hm.
    + apply mem_In in Hm. destruct (IH ex q vis) as [new [Heq [Hnd [Hsub Hall]]]].
      exists new. split; [exact Heq | split; [exact Hnd | split]].
      * apply incl_tl. exact Hsub.
      * intros x [<-|Hx]; [left; exact Hm | exact (Hall x Hx)].
    + apply mem_false in Hm.
      destruct (IH ex (q ++ [c]) (c :: vis)) as [new [Heq [Hnd [Hsub Hall]]]].
      exists (c :: new). cbn [rev]. rewrite <- !app_assoc. rewrite <- app_assoc in Heq.
      split; [exact Heq | split; [|split]].
      * intros Hv. apply Hnd. constructor; assumption.
      * apply incl_cons; [left; reflexivity | apply incl_tl; exact Hsub].
      * intros x [<-|Hx]; [right; left; reflexivity|].
        destruct (Hall x Hx) as [[H|H]|H].
        -- right. left. exact H.
        -- left. exact H.
        -- right. right. exact H.
  - exact (IH ex q vis).
Qed.

Lemma start_queue_In : forall roots excl x,
  In x (start_queue roots excl) <-> exists k, In (x, k) roots /\ ~ In (x, k) excl.
Proof.
  intros roots excl x. unfold start_queue. rewrite dedup_In. apply allowed_In.
Qed.

Lemma start_queue_NoDup : forall roots excl, NoDup (start_queue roots excl).
Proof. intros roots excl. apply NoDup_nodup. Qed.

Section TraverseProofs.
Variable next : nid -> list (option edge).
Variable acc : nid -> option tid.

(* a path n -> ... -> m along next_functions none of whose EDGES is excluded *)
Inductive epath (excl : list edge) : nid -> nid -> Prop :=
| ep_refl : forall n, epath excl n n
| ep_step : forall n c k m, In (Some (c, k)) (next n) -> ~ In (c, k) excl -> epath excl c m -> epath excl n m.

Lemma epath_snoc : forall E r n c k,
  epath E r n -> In (Some (c, k)) (next n) -> ~ In (c, k) E -> epath E r c.
Proof.
  intros E r n c k Hp. induction Hp as [n | n d j m Hd Hnd Hp IH]; intros Hc Hex.
  - eapply ep_step; [exact Hc | exact Hex | apply ep_refl].
  - eapply ep_step; [exact Hd | exact Hnd | apply IH; assumption].
Qed.

Definition reach (roots E : list edge) (x : nid) : Prop :=
  exists r k, In (r, k) roots /\ ~ In (r, k) E /\ epath E r x.

Lemma reach_root : forall roots E r k, In (r, k) roots -> ~ In (r, k) E -> reach roots E r.
Proof. intros roots E r k Hr Hex. exists r, k. split; [exact Hr | split; [exact Hex | apply ep_refl]]. Qed.

Lemma reach_step : forall roots E n c k,
  reach roots E n -> In (Some (c, k)) (next n) -> ~ In (c, k) E -> reach roots E c.
Proof.
  intros roots E n c k [r [j [Hr [Hrn Hp]]]] Hc Hex.
  exists r, j. split; [exact Hr | split; [exact Hrn | exact (epath_snoc E r n c k Hp Hc Hex)]].
Qed.

Lemma reach_least : forall roots E (S : nid -> Prop),
  (forall r k, In (r, k) roots -> ~ In (r, k) E -> S r) ->
  (forall n c k, S n -> In (Some (c, k)) (next n) -> ~ In (c, k) E -> S c) ->
  forall x, reach roots E x -> S x.
Proof.
  intros roots E S Hroot Hstep x [r [k [Hr [Hex Hp]]]].
  specialize (Hroot r k Hr Hex). clear Hr Hex.
  induction Hp as [n | n c j m Hc Hcx Hp IH].
  - exact Hroot.
  - apply IH. exact (Hstep n c j Hroot Hc Hcx).
Qed.

(* invariant of the loop, V being the set of popped nodes: queued and popped nodes are reachable,
   visited nodes are queued or popped, the roots and the children of popped nodes are visited *)
Definition Walk (roots E : list edge) (V queue vis : list nid) : Prop :=
  (forall x, In x queue \/ In x V -> reach roots E x) /\
  (forall x, In x vis -> In x V \/ In x queue) /\
  (forall r k, In (r, k) roots -> ~ In (r, k) E -> In r vis) /\
  (forall v c k, In v V -> In (Some (c, k)) (next v) -> ~ In (c, k) E -> In c vis).

Lemma Walk_init : forall roots E, Walk roots E [] (start_queue roots E) (start_queue roots E).
Proof.
  intros roots E. split; [|split; [|split]].
  - intros x [Hx|[]]. apply start_queue_In in Hx. destruct Hx as [k [Hr Hn]].
    exact (reach_root roots E x k Hr Hn).
  - intros x Hx. right. exact Hx.
  - intros r k Hr Hn. apply start_queue_In. exists k. split; assumption.
  - intros v c k [].
Qed.

Lemma Walk_step : forall roots E V n q vis,
  Walk roots E V (n :: q) vis ->
  Walk roots E (n :: V) (fst (enqueue (next n) E q vis)) (snd (enqueue (next n) E q vis)).
Proof.
  intros roots E V n q vis (H1 & H2 & H3 & H4).
  destruct (enqueue_spec (next n) E q vis) as [new [-> [_ [Hsub Hall]]]]. cbn [fst snd].
  split; [|split; [|split]].
  - intros x [Hx|[<-|Hx]].
    + apply in_app_or in Hx. destruct Hx as [Hx|Hx].
      * apply H1. left. right. exact Hx.
      * apply Hsub, child_In in Hx. destruct Hx as [k [Hc Hex]].
        apply (reach_step roots E n x k); [|exact Hc | exact Hex].
        apply H1. left. left. reflexivity.
    + apply H1. left. left. reflexivity.
    + apply H1. right. exact Hx.
  - intros x Hx. apply in_app_or in Hx. destruct Hx as [Hx|Hx].
    + right. apply in_or_app. right. apply in_rev. exact Hx.
    + destruct (H2 x Hx) as [H|[H|H]].
      * left. right. exact H.
      * left. left. exact H.
      * right. apply in_or_app. left. exact H.
  - intros r k Hr Hex. apply in_or_app. right. exact (H3 r k Hr Hex).
  - intros v c k [<-|Hv] Hc Hex; apply in_or_app.
    + destruct (Hall c) as [H|H];
        [apply child_In; exists k; split; assumption | right; exact H | left; apply in_rev in H; exact H].
    + right. exact (H4 v c k Hv Hc Hex).
Qed.

Lemma Walk_final : forall roots E V vis,
  Walk roots E V [] vis -> forall x, In x V <-> reach roots E x.
Proof.
  intros roots E V vis (H1 & H2 & H3 & H4).
  assert (Hvis : forall x, In x vis -> In x V).
  { intros x Hx. destruct (H2 x Hx) as [H|[]]. exact H. }
  intros x. split.
  - intros Hx. apply H1. right. exact Hx.
  - apply (reach_least roots E (fun y => In y V)).
    + intros r k Hr Hex. exact (Hvis r (H3 r k Hr Hex)).
    + intros n c k Hn Hc Hex. exact (Hvis c (H4 n c k Hn Hc Hex)).
Qed.

Definition Res (V result : list nid) : Prop :=
  NoDup result /\ forall a, In a result <-> acc a <> None /\ In a V.

Lemma Res_step : forall V n result,
  Res V result ->
  Res (n :: V) (match acc n with
                | Some _ => if mem n result then result else n :: result
                | None => result
                end).
Proof.
  intros V n result [Hnd Hin].
  assert (Hold : forall a, In a result -> acc a <> None /\ In a (n :: V)).
  { intros a Ha. apply Hin in Ha. destruct Ha as [Ha Hv]. split; [exact Ha | right; exact Hv]. }
  destruct (acc n) as [t|] eqn:Hacc.
  - destruct (mem n result) eqn:Hm.
    + apply mem_In in Hm. split; [exact Hnd|]. intros a. split; [apply Hold|].
      intros [Ha [<-|Hv]]; [exact Hm | apply Hin; split; assumption].
    + apply mem_false in Hm. split; [constructor; assumption|]. intros a. split.
      * intros [<-|Ha]; [split; [congruence | left; reflexivity] | exact (Hold a Ha)].
      * intros [Ha [Hv|Hv]]; [left; exact Hv | right; apply Hin; split; assumption].
  - split; [exact Hnd|]. intros a. split; [apply Hold|].
    intros [Ha [<-|Hv]]; [congruence | apply Hin; split; assumption].
Qed.

Lemma bfs_inv : forall roots E fuel V queue vis result res,
  Walk roots E V queue vis -> Res V result ->
  bfs next acc fuel E queue vis result = Some res ->
  NoDup res /\ forall a, In a res <-> acc a <> None /\ reach roots E a.
Proof.
  intros roots E. induction fuel as [|f IH]; intros V queue vis result res HW HR Hb.
  - discriminate Hb.
  - cbn [bfs] in Hb. destruct queue as [|n q].
    + injection Hb as <-. destruct HR as [Hnd Hin]. split; [exact Hnd|].
      intros a. rewrite <- (Walk_final roots E V vis HW). exact (Hin a).
    + exact (IH _ _ _ _ res (Walk_step roots E V n q vis HW) (Res_step V n result HR) Hb).
Qed.

Lemma Res_init : Res [] [].
Proof. split; [constructor|]. intros a. split; [intros [] | intros [_ []]]. Qed.

Lemma descendant_accumulate_grads_spec : forall fuel roots excl res,
  descendant_accumulate_grads next acc fuel roots excl = Some res ->
  NoDup res /\ forall a, In a res <-> acc a <> None /\ reach roots excl a.
Proof.
  intros fuel roots excl res.
  exact (bfs_inv roots excl fuel [] _ _ _ res (Walk_init roots excl) Res_init).
Qed.

(* soundness and completeness: whenever the walk terminates, the result is exactly the set of
   AccumulateGrad nodes reachable from a non-excluded root edge along paths whose edges are all
   non-excluded.  Any graph, cyclic or not. *)
Lemma bfs_sound_complete : forall fuel roots excl res,
  descendant_accumulate_grads next acc fuel roots excl = Some res ->
  forall a, In a res <->
    (acc a <> None /\ exists r k, In (r, k) roots /\ ~ In (r, k) excl /\ epath excl r a).
Proof.
  intros fuel roots excl res H. exact (proj2 (descendant_accumulate_grads_spec fuel roots excl res H)).
Qed.

Lemma bfs_result_nodup : forall fuel roots excl res,
  descendant_accumulate_grads next acc fuel roots excl = Some res -> NoDup res.
Proof.
  intros fuel roots excl res H. exact (proj1 (descendant_accumulate_grads_spec fuel roots excl res H)).
Qed.

Lemma bfs_fuel_gen : forall nodes roots E,
  (forall x, reach roots E x -> In x nodes) ->
  forall fuel V queue vis result,
  Walk roots E V queue vis -> NoDup vis ->
  length queue + length nodes < fuel + length vis ->
  bfs next acc fuel E queue vis result <> None.
Proof.
  intros nodes roots E Hall. induction fuel as [|f IH]; intros V queue vis result HW Hnd Hlt.
  - exfalso. assert (Hle : length vis <= length nodes).
    { apply NoDup_incl_length; [exact Hnd|]. intros x Hx. apply Hall.
      destruct HW as [H1 [H2 _]]. apply H1. destruct (H2 x Hx) as [H|H]; [right | left]; exact H. }
    lia.
  - cbn [bfs]. destruct queue as [|n q]; [discriminate|].
    pose proof (Walk_step roots E V n q vis HW) as HW'.
    destruct (enqueue_spec (next n) E q vis) as [new [Heq [Hnd' _]]].
    rewrite Heq in *. cbn [fst snd] in *.
    apply (IH (n :: V) _ _ _ HW' (Hnd' Hnd)).
    (* every node appended to the queue is pushed on [visited] *)
    rewrite !app_length, rev_length. cbn [length] in Hlt. lia.
Qed.

Theorem bfs_terminates : forall nodes fuel roots excl,
  (forall x, reach roots excl x -> In x nodes) ->
  length nodes < fuel ->
  descendant_accumulate_grads next acc fuel roots excl <> None.
Proof.
  intros nodes fuel roots excl Hall Hlt.
  apply (bfs_fuel_gen nodes roots excl Hall fuel []);
    [apply Walk_init | apply start_queue_NoDup | lia].
Qed.

Lemma bfs_fuel_suffices : forall nodes fuel roots excl,
  NoDup nodes ->
  (forall r k, In (r, k) roots -> In r nodes) ->
  (forall n c k, In n nodes -> In (Some (c, k)) (next n) -> In c nodes) ->
  length nodes < fuel ->
  descendant_accumulate_grads next acc fuel roots excl <> None.
Proof.
  intros nodes fuel roots excl _ Hr Hcl Hlt. apply (bfs_terminates nodes); [|exact Hlt].
  apply (reach_least roots excl (fun y => In y nodes)).
  - intros r k Hrk _. exact (Hr r k Hrk).
  - intros n c k Hn Hc _. exact (Hcl n c k Hn Hc).
Qed.
End TraverseProofs.

Print Assumptions bfs_sound_complete.
Print Assumptions bfs_result_nodup.
Print Assumptions bfs_fuel_suffices.
