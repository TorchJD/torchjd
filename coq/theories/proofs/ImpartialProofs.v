(* C17 for ConFIG (equal positive cosines) and Aligned-MTL (re-balanced rows are mutually orthogonal
   and of the same length).  The numerical kernels (pinv, eigh) are oracle arguments of the models;
   their contracts are HYPOTHESES of the theorems below. *)
From Coq Require Import Reals List Lia Lra Sorted.
From TJ Require Import Num Linalg NumR Agg.
From TJ.proofs Require Import LinalgR C03Proofs C08Proofs C10Proofs EquivarianceProofs.
Import ListNotations.
Local Open Scope R_scope.

Definition cosine (a b : list R) : R := dotR a b / (sqrt (dotR a a) * sqrt (dotR b b)).

(* the pseudo-inverse oracle's contract for a full-row-rank U = config_units J :  U B = I on R^m *)
Definition config_contract (m : nat) (J B : list (list R)) : Prop :=
  forall x, length x = m -> mvR (config_units RN J) (mvR B x) = x.

Lemma sqrt_dot_pos_nth J i : (forall g, In g J -> 0 < dotR g g) -> (i < length J)%nat ->
  0 < sqrt (dotR (nth i J []) (nth i J [])).
Proof. intros Hnz Hi. apply sqrt_lt_R0, Hnz, nth_In, Hi. Qed.

(* key step: <unit_i, best> = (U best)_i = (U B w)_i = w_i, i.e. <g_i, best> = |g_i| w_i *)
Lemma config_dot_best B J w i :
  (forall g, In g J -> 0 < dotR g g) -> config_contract (length J) J B -> length w = length J ->
  (i < length J)%nat ->
  dotR (nth i J []) (mvR B w) = sqrt (dotR (nth i J []) (nth i J [])) * nth i w 0.
Proof.
  intros Hnz HUB Hlw Hi. pose proof (sqrt_dot_pos_nth J i Hnz Hi) as Hs.
  pose proof (f_equal (fun v => nth i v 0) (HUB w Hlw)) as E. cbv beta in E.
  rewrite config_units_cunit, nth_mv in E by (rewrite map_length; exact Hi).
  rewrite (nth_map_lt cunit J i [] []) in E by exact Hi.
  rewrite cunit_nonzero, dot_vscale_l in E by (apply Hnz, nth_In, Hi).
  rewrite <- E. field. lra.
Qed.

Lemma config_best_nonzero B J w :
  J <> [] -> (forall g, In g J -> 0 < dotR g g) -> config_contract (length J) J B ->
  length w = length J -> (forall i, (i < length J)%nat -> 0 < nth i w 0) ->
  0 < dotR (mvR B w) (mvR B w).
Proof.
  intros Hne Hnz HUB Hlw Hw.
  pose proof (length_nonnil J Hne) as H0.
  pose proof (config_dot_best B J w 0%nat Hnz HUB Hlw H0) as E.
  pose proof (Rmult_lt_0_compat _ _ (sqrt_dot_pos_nth J 0 Hnz H0) (Hw 0%nat H0)) as Hpos.
  destruct (dot_self_nonneg (mvR B w)) as [Hlt|Z]; [exact Hlt|].
  symmetry in Z. apply dot_self_zero in Z. rewrite Z, dot_vzero_r in E. lra.
Qed.

Lemma config_direction_is_unit (best : list R) :
  0 < dotR best best ->
  let u := vscaleR (1 / sqrt (dotR best best)) best in
  dotR u u = 1.
Proof.
  intros Hb u. unfold u. rewrite dot_vscale_l, dot_vscale_r.
  pose proof (sqrt_lt_R0 _ Hb) as Hs.
  pose proof (sqrt_sqrt (dotR best best) (Rlt_le _ _ Hb)) as Hq.
  set (s := sqrt (dotR best best)) in *. rewrite <- Hq. field. lra.
Qed.

Theorem config_equal_cosines B pref J w :
  forall (Hne : J <> [])
         (Hnz : forall g, In g J -> 0 < dotR g g)
         (* pinv contract for a full-row-rank U = config_units J :  U B = I *)
         (HUB : forall x, length x = length J -> mvR (config_units RN J) (mvR B x) = x)
         (* w is the preference vector, or ones by default *)
         (Hpw : pref_weights pref (sum_weights RN (length J)) (length J) = Ok w)
         (Hw : forall i, (i < length J)%nat -> 0 < nth i w 0),
  let best := mvR B w in
  let nb := sqrt (dotR best best) in
  let u := vscaleR (1 / nb) best in
  let L := vsumR (map (fun g => dotR g u) J) in
  0 < nb /\
  dotR u u = 1 /\
  (forall i, (i < length J)%nat ->
     dotR (nth i J []) u = sqrt (dotR (nth i J []) (nth i J [])) * nth i w 0 / nb) /\
  0 < L /\
  agg_config RN B pref J = Ok (vscaleR L u) /\
  (forall i, (i < length J)%nat -> cosine (nth i J []) (vscaleR L u) = nth i w 0 / nb).
Proof.
  intros Hne Hnz HUB Hpw Hw best nb u L.
  pose proof (pref_weights_length pref _ _ w (repeat_length _ _) Hpw) as Hlw.
  assert (Hb : 0 < dotR best best) by (apply (config_best_nonzero B J w); assumption).
  assert (Hnb : 0 < nb) by (apply sqrt_lt_R0; exact Hb).
  assert (Hu : dotR u u = 1) by (apply config_direction_is_unit; exact Hb).
  assert (Hproj : forall i, (i < length J)%nat ->
     dotR (nth i J []) u = sqrt (dotR (nth i J []) (nth i J [])) * nth i w 0 / nb).
  { intros i Hi. unfold u. rewrite dot_vscale_r. unfold best.
    rewrite (config_dot_best B J w i Hnz HUB Hlw Hi). field. lra. }
  assert (HL : 0 < L).
  { unfold L. apply vsum_pos.
    - destruct J; [congruence | discriminate].
    - apply Forall_forall. intros x Hx. apply in_map_iff in Hx. destruct Hx as (g & <- & Hg).
      destruct (In_nth _ _ [] Hg) as (i & Hi & <-). rewrite (Hproj i Hi).
      apply Rdiv_lt_0_compat; [|exact Hnb].
      apply Rmult_lt_0_compat; [apply sqrt_dot_pos_nth; assumption | apply Hw; exact Hi]. }
  split; [exact Hnb|]. split; [exact Hu|]. split; [exact Hproj|]. split; [exact HL|]. split.
  - rewrite agg_config_cunit, Hpw. cbn [rbind]. fold best. rewrite (cunit_nonzero best Hb).
    reflexivity.
  - intros i Hi. unfold cosine.
    rewrite !dot_vscale_r, dot_vscale_l, Hu, (Hproj i Hi).
    replace (L * (L * 1)) with (L * L) by ring. rewrite sqrt_square by lra.
    pose proof (sqrt_dot_pos_nth J i Hnz Hi) as Hs.
    field. repeat split; lra.
Qed.

(* default preference (w = ones): the cosines with all rows are equal and positive *)
Corollary config_default_equal_cosines B J v :
  forall (Hne : J <> [])
         (Hnz : forall g, In g J -> 0 < dotR g g)
         (HUB : forall x, length x = length J -> mvR (config_units RN J) (mvR B x) = x)
         (Hv : agg_config RN B None J = Ok v),
  exists c, 0 < c /\ forall i, (i < length J)%nat -> cosine (nth i J []) v = c.
Proof.
  intros Hne Hnz HUB Hv.
  assert (Hone : forall i, (i < length J)%nat -> nth i (sum_weights RN (length J)) 0 = 1).
  { intros i Hi. apply nth_repeat_lt. exact Hi. }
  assert (Hw : forall i, (i < length J)%nat -> 0 < nth i (sum_weights RN (length J)) 0).
  { intros i Hi. rewrite (Hone i Hi). lra. }
  destruct (config_equal_cosines B None J (sum_weights RN (length J)) Hne Hnz HUB eq_refl Hw)
    as (Hnb & _ & _ & _ & Hagg & Hcos).
  rewrite Hagg in Hv. injection Hv as <-.
  exists (1 / sqrt (dotR (mvR B (sum_weights RN (length J))) (mvR B (sum_weights RN (length J))))).
  split.
  - apply Rdiv_lt_0_compat; [lra | exact Hnb].
  - intros i Hi. rewrite (Hcos i Hi), (Hone i Hi). reflexivity.
Qed.

Lemma last_is_min (lam : list R) : StronglySorted Rge lam ->
  forall x, In x lam -> last lam 0 <= x.
Proof.
  induction 1 as [|a l Hs IH Ha]; intros x Hx; [destruct Hx|].
  destruct l as [|y l]; [destruct Hx as [<-|[]]; cbn; lra|].
  change (last (a :: y :: l) 0) with (last (y :: l) 0).
  destruct Hx as [<-|Hx]; [|apply IH; exact Hx].
  rewrite Forall_forall in Ha. apply Rge_le. apply Ha. apply last_In. discriminate.
Qed.

Lemma eigen_rows m G lam V : length lam = m -> length V = m ->
  (forall k, (k < m)%nat -> mvR G (nth k V []) = vscaleR (nth k lam 0) (nth k V [])) ->
  map (mvR G) V = scale_rows lam V.
Proof.
  intros Hl HV He. apply (nth_ext _ _ [] []).
  - unfold scale_rows. rewrite !map_length, combine_length. lia.
  - intros k Hk. rewrite map_length, HV in Hk.
    rewrite (nth_map_lt (mvR G) V k [] []) by (rewrite HV; exact Hk). rewrite (He k Hk).
    unfold scale_rows.
    rewrite (nth_map_lt _ (List.combine lam V) k [] (0, [])) by (rewrite combine_length; lia).
    rewrite combine_nth by congruence. reflexivity.
Qed.

Definition bal_entry (lam_r : list R) (V_r : list (list R)) (lamR : R) (i j : nat) : R :=
  sqrt lamR *
  vsumR (map (fun '(l, v) => (1 / sqrt l) * (vget RN v i * vget RN v j)) (List.combine lam_r V_r)).

Definition bal_rank (lam : list R) (tol : R) : nat := length (filter (fun l => nltb RN tol l) lam).

Lemma aligned_balance_table lam Vt tol :
  aligned_balance RN lam Vt tol =
  let m := length lam in
  let rank := bal_rank lam tol in
  if (rank =? 0)%nat then map (fun i => onehotR m i 1) (seq 0 m)
  else map (fun i => map (bal_entry (firstn rank lam) (firstn rank Vt)
                                    (last (firstn rank lam) 0) i) (seq 0 m)) (seq 0 m).
Proof. reflexivity. Qed.

Lemma length_aligned_balance lam Vt tol : length (aligned_balance RN lam Vt tol) = length lam.
Proof.
  rewrite aligned_balance_table. cbv zeta.
  destruct (bal_rank lam tol =? 0)%nat; rewrite map_length; apply seq_length.
Qed.

Lemma wfmat_aligned_balance lam Vt tol : wfmat (length lam) (aligned_balance RN lam Vt tol).
Proof.
  rewrite aligned_balance_table. cbv zeta.
  destruct (bal_rank lam tol =? 0)%nat; apply wfmat_map; intros a _.
  - apply length_onehot.
  - rewrite map_length. apply seq_length.
Qed.

Lemma aligned_balance_full lam Vt tol :
  lam <> [] -> (forall l, In l lam -> tol < l) -> length Vt = length lam ->
  aligned_balance RN lam Vt tol =
  map (fun i => map (bal_entry lam Vt (last lam 0) i) (seq 0 (length lam))) (seq 0 (length lam)).
Proof.
  intros Hne Hfull HlV. rewrite aligned_balance_table. unfold bal_rank. cbv zeta.
  rewrite filter_all by (intros l Hl; rn; apply Rltb_true; apply Hfull; exact Hl).
  destruct (length lam =? 0)%nat eqn:E.
  { apply Nat.eqb_eq in E. destruct lam; [congruence | discriminate]. }
  rewrite !firstn_all2 by lia. reflexivity.
Qed.

Lemma bal_entry_sym L V s i j : bal_entry L V s i j = bal_entry L V s j i.
Proof. unfold bal_entry. f_equal. f_equal. apply map_ext. intros [l v]. ring. Qed.

(* entry (i, j) of  sqrt t * V^T diag(1 / sqrt lam) V :  row i of that matrix is
   (column i of V, weighted by sqrt t / sqrt lam_k) . V *)
Lemma bal_entry_dot t i j : forall lam V, length lam = length V ->
  bal_entry lam V t i j =
  dotR (vmul (column RN V i) (map (fun l => sqrt t * (1 / sqrt l)) lam)) (column RN V j).
Proof.
  unfold bal_entry. induction lam as [|l lam IH]; intros [|v V] H; cbn in H; try lia.
  - cbn. rn. ring.
  - cbn [List.combine map column]. rewrite vsum_cons, vmul_cons, dot_cons, <- IH by lia.
    unfold vget. rn. ring.
Qed.

(* (a o d) . (b o d o lam) = s^2 (a . b)  for the weights d_k = s / sqrt lam_k *)
Lemma balance_weights s : forall lam a b, length a = length lam -> length b = length lam ->
  (forall l, In l lam -> 0 < l) ->
  dotR (vmul a (map (fun l => s * (1 / sqrt l)) lam))
       (vmul (vmul b (map (fun l => s * (1 / sqrt l)) lam)) lam) = s * s * dotR a b.
Proof.
  induction lam as [|l lam IH]; intros [|x a] [|y b] Ha Hb Hpos; cbn in Ha, Hb; try lia.
  - cbn. ring.
  - cbn [map]. rewrite !vmul_cons, !dot_cons.
    rewrite IH by (try lia; intros l' Hl'; apply Hpos; right; exact Hl').
    assert (Hl : 0 < l) by (apply Hpos; left; reflexivity).
    pose proof (sqrt_lt_R0 _ Hl) as Hq. pose proof (sqrt_sqrt _ (Rlt_le _ _ Hl)) as El.
    set (q := sqrt l) in *. rewrite <- El. field. lra.
Qed.

(* contract of the eigh oracle for the m x m matrix G: the rows of Vt are orthonormal (Vt Vt^T = I)
   and complete (Vt^T Vt = I: the columns are orthonormal too), and row k is an eigenvector of G
   for lam_k.  For G = gram J these are the last three hypotheses of aligned_rebalanced_rows. *)
Definition eigh_ok (m : nat) (G : list (list R)) (lam : list R) (Vt : list (list R)) : Prop :=
  (forall k l, (k < m)%nat -> (l < m)%nat ->
     dotR (nth k Vt []) (nth l Vt []) = if (k =? l)%nat then 1 else 0) /\
  (forall i j, (i < m)%nat -> (j < m)%nat ->
     dotR (column RN Vt i) (column RN Vt j) = if (i =? j)%nat then 1 else 0) /\
  (forall k, (k < m)%nat -> mvR G (nth k Vt []) = vscaleR (nth k lam 0) (nth k Vt [])).

(* B G B^T = (last lam) I.  The re-balanced rows Ghat_i = (row i of B) . J are mutually orthogonal
   and all have squared length  last lam,  the smallest eigenvalue when lam is in descending order
   (last_is_min); no hypothesis here orders lam. *)
Theorem aligned_rebalanced_rows n J lam Vt tol :
  let m := length J in
  forall (HJ : wfmat n J) (Hne : J <> [])
         (* eigh oracle, full-rank case: m eigenvalues, all above tol >= 0 *)
         (Hll : length lam = m) (HlV : length Vt = m) (HwV : wfmat m Vt)
         (Htol : 0 <= tol) (Hfull : forall l, In l lam -> tol < l)
         (Hrows : forall k l, (k < m)%nat -> (l < m)%nat ->
                    dotR (nth k Vt []) (nth l Vt []) = if (k =? l)%nat then 1 else 0)
         (Hcols : forall i j, (i < m)%nat -> (j < m)%nat ->
                    dotR (column RN Vt i) (column RN Vt j) = if (i =? j)%nat then 1 else 0)
         (Heig : forall k, (k < m)%nat ->
                    mvR (gramR J) (nth k Vt []) = vscaleR (nth k lam 0) (nth k Vt [])),
  let B := aligned_balance RN lam Vt tol in
  let Ghat := mmulR n B J in
  length Ghat = m /\
  (forall i, (i < m)%nat -> nth i Ghat [] = vmR n (nth i B []) J) /\
  forall i j, (i < m)%nat -> (j < m)%nat ->
    dotR (nth i Ghat []) (nth j Ghat []) = if (i =? j)%nat then last lam 0 else 0.
Proof.
  intros m HJ Hne Hll HlV HwV Htol Hfull Hrows Hcols Heig B Ghat.
  pose proof (nonnil_same_length lam J Hll Hne) as Hlne.
  assert (Hpos : forall l, In l lam -> 0 < l) by (intros l Hl; specialize (Hfull l Hl); lra).
  assert (Hs2 : 0 <= last lam 0) by (apply Rlt_le, Hpos, last_In, Hlne).
  set (s := sqrt (last lam 0)).
  set (a := fun i => vmul (column RN Vt i) (map (fun l => s * (1 / sqrt l)) lam)).
  assert (Hla : forall i, length (a i) = m).
  { intros i. unfold a. rewrite length_vmul; rewrite length_column, ?map_length; congruence. }
  assert (HB : B = map (fun i => map (bal_entry lam Vt (last lam 0) i) (seq 0 m)) (seq 0 m)).
  { unfold B. rewrite aligned_balance_full by (auto; congruence). rewrite Hll. reflexivity. }
  assert (Hrow : forall i, (i < m)%nat -> nth i B [] = vmR m (a i) Vt).
  { intros i Hi. rewrite HB, nth_map_seq by exact Hi. apply (nth_ext _ _ 0 0).
    - rewrite map_length, seq_length, (length_vm m) by exact HwV. reflexivity.
    - intros j Hj. rewrite map_length, seq_length in Hj. rewrite nth_map_seq by exact Hj.
      rewrite (nth_vm m j _ Vt HwV) by (rewrite ?Hla; congruence).
      apply bal_entry_dot. congruence. }
  assert (HG : forall i, (i < m)%nat -> nth i Ghat [] = vmR n (nth i B []) J).
  { intros i Hi. apply (nth_map_lt (fun r => vmR n r J)).
    rewrite HB, map_length, seq_length. exact Hi. }
  split; [unfold Ghat, mmul; rewrite HB, !map_length; apply seq_length|]. split; [exact HG|].
  (* Ghat_i . Ghat_j = B_i . G B_j  with  B_i = a_i . Vt ;  G (a . Vt) = (a o lam) . Vt  by the
     eigen-equations;  (a . Vt) . (b . Vt) = a . b  because the rows of Vt are orthonormal;  what
     is left is  s^2 (column i . column j) *)
  intros i j Hi Hj. rewrite !HG, !Hrow by assumption.
  rewrite <- (bil_gram n J) by (rewrite ?(length_vm m) by exact HwV; auto).
  rewrite (mv_vm _ m) by exact HwV.
  rewrite (eigen_rows m (gramR J) lam Vt Hll HlV Heig), vm_scale_rows, length_gram
    by (rewrite ?Hla; congruence).
  rewrite (dot_mmul m m Vt _ _ (orth_rows m m Vt HlV HwV Hrows))
    by (rewrite ?length_vmul; rewrite ?Hla; congruence).
  unfold a. rewrite balance_weights by (rewrite ?length_column; congruence || exact Hpos).
  unfold s. rewrite sqrt_sqrt by exact Hs2. rewrite Hcols by assumption.
  destruct (i =? j)%nat; ring.
Qed.

(* the link with the model:  A(J) = (B w) . J = w . Ghat, because B is symmetric *)
Lemma mget_aligned_balance_sym lam Vt tol i j : (i < length lam)%nat -> (j < length lam)%nat ->
  mget RN (aligned_balance RN lam Vt tol) i j = mget RN (aligned_balance RN lam Vt tol) j i.
Proof.
  intros Hi Hj. rewrite aligned_balance_table. cbv zeta. destruct (bal_rank lam tol =? 0)%nat.
  - unfold mget. rewrite !nth_map_seq, !nth_onehot by assumption. rewrite Nat.eqb_sym. reflexivity.
  - rewrite !mget_table by assumption. apply bal_entry_sym.
Qed.

(* whatever the rank the oracle reports: the output is the combination of the re-balanced rows *)
Theorem aligned_output_rebalanced n J lam Vt tol pref w :
  wfmat n J -> J <> [] -> length lam = length J ->
  pref_weights pref (mean_weights RN (length J)) (length J) = Ok w ->
  agg_aligned RN lam Vt tol pref J = Ok (vmR n w (mmulR n (aligned_balance RN lam Vt tol) J)).
Proof.
  intros HJ Hne Hll Hpw.
  pose proof (pref_weights_length pref _ _ w (repeat_length _ _) Hpw) as Hlw.
  pose proof (wfmat_aligned_balance lam Vt tol) as HwB.
  pose proof (length_aligned_balance lam Vt tol) as HlB.
  unfold agg_aligned. rewrite Hpw. cbn [rbind]. f_equal.
  rewrite (combine_wf n) by assumption.
  rewrite (mv_sym_vm (length lam)) by
    (assumption || congruence || apply mget_aligned_balance_sym).
  rewrite Hll in *. apply (vm_mmul (length J) n _ J); assumption.
Qed.

Theorem aligned_is_combination_of_rebalanced n J lam Vt tol pref w :
  let m := length J in
  forall (HJ : wfmat n J) (Hne : J <> [])
         (Hll : length lam = m) (HlV : length Vt = m)
         (Hfull : forall l, In l lam -> tol < l)
         (Hpw : pref_weights pref (mean_weights RN m) m = Ok w),
  let B := aligned_balance RN lam Vt tol in
  let Ghat := mmulR n B J in
  agg_aligned RN lam Vt tol pref J = Ok (vmR n w Ghat).
Proof. intros m HJ Hne Hll _ _ Hpw. apply aligned_output_rebalanced; assumption. Qed.

(* non-vacuity: the hypotheses of the two main theorems are jointly satisfiable *)
Example config_hypotheses_satisfiable :
  let J := [[2]] in let B := [[1]] in
  J <> [] /\ (forall g, In g J -> 0 < dotR g g) /\
  (forall x, length x = length J -> mvR (config_units RN J) (mvR B x) = x).
Proof.
  cbv zeta. split; [discriminate|].
  assert (Hnz : forall g, In g [[2]] -> 0 < dotR g g) by (intros g [<-|[]]; cbn; lra).
  split; [exact Hnz|].
  intros [|a [|b x]] H; try discriminate.
  rewrite config_units_cunit. cbn [map]. rewrite cunit_nonzero by (apply Hnz; left; reflexivity).
  cbn. replace (2 * 2 + 0) with (2 * 2) by ring. rewrite sqrt_square by lra. f_equal. field.
Qed.

Example aligned_hypotheses_satisfiable :
  let J := [[2]] in let lam := [4] in let Vt := [[1]] in let tol := 0 in let m := length J in
  wfmat 1 J /\ J <> [] /\ length lam = m /\ length Vt = m /\ wfmat m Vt /\ 0 <= tol /\
  (forall l, In l lam -> tol < l) /\
  (forall k l, (k < m)%nat -> (l < m)%nat ->
     dotR (nth k Vt []) (nth l Vt []) = if (k =? l)%nat then 1 else 0) /\
  (forall i j, (i < m)%nat -> (j < m)%nat ->
     dotR (column RN Vt i) (column RN Vt j) = if (i =? j)%nat then 1 else 0) /\
  (forall k, (k < m)%nat -> mvR (gramR J) (nth k Vt []) = vscaleR (nth k lam 0) (nth k Vt [])).
Proof.
  cbv zeta. cbn [length].
  assert (H0 : forall k, (k < 1)%nat -> k = 0%nat) by (intros; lia).
  split; [repeat constructor|]. split; [discriminate|]. split; [reflexivity|]. split; [reflexivity|].
  split; [repeat constructor|]. split; [lra|]. split; [|split; [|split]].
  - intros l [<-|[]]. lra.
  - intros k l Hk Hl. rewrite (H0 k Hk), (H0 l Hl). cbn. ring.
  - intros k l Hk Hl. rewrite (H0 k Hk), (H0 l Hl). cbn. ring.
  - intros k Hk. rewrite (H0 k Hk). cbn. f_equal. ring.
Qed.

Print Assumptions config_direction_is_unit.
Print Assumptions config_equal_cosines.
Print Assumptions config_default_equal_cosines.
Print Assumptions aligned_rebalanced_rows.
Print Assumptions aligned_is_combination_of_rebalanced.
Print Assumptions last_is_min.
