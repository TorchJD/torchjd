(* TrimmedMean (sorting, robustness) and Krum (selection, the distance matrix by rows);
   both reject matrices with too few rows. *)
From Coq Require Import Reals List Lia Lra Permutation Sorted.
From TJ Require Import Num Linalg NumR Agg.
From TJ.proofs Require Import LinalgR.
Import ListNotations.
Local Open Scope R_scope.

Notation isortR := (isort RN).
Notation insertR := (insert RN).

(* insertion by a real key: Agg's insert (key = the entry) and insert_idx (key = fst) *)
Section KeyInsert.
Context {A : Type} (key : A -> R).

Fixpoint kinsert (x : A) (l : list A) : list A :=
  match l with
  | [] => [x]
  | y :: l' => if Rleb (key x) (key y) then x :: l else y :: kinsert x l'
  end.

Definition key_le (a b : A) : Prop := key a <= key b.

Lemma kinsert_perm x l : Permutation (kinsert x l) (x :: l).
Proof.
  induction l as [|y l IH]; [reflexivity|]. cbn [kinsert]. destruct (Rleb (key x) (key y)); [reflexivity|].
  rewrite IH. apply perm_swap.
Qed.

Lemma kinsert_sorted x l : StronglySorted key_le l -> StronglySorted key_le (kinsert x l).
Proof.
  induction 1 as [|y l Hs IH Hy]; cbn [kinsert]; [repeat constructor|].
  destruct (Rleb (key x) (key y)) eqn:E.
  - apply Rleb_true in E. constructor; [constructor; assumption|]. constructor; [exact E|].
    eapply Forall_impl; [|exact Hy]. unfold key_le. intros z Hz. lra.
  - apply Rleb_false in E. constructor; [exact IH|].
    eapply Permutation_Forall; [symmetry; apply kinsert_perm|]. constructor; [unfold key_le; lra|exact Hy].
Qed.

Lemma kinsert_map (f : A -> A) :
  (forall x y, Rleb (key (f x)) (key (f y)) = Rleb (key x) (key y)) ->
  forall x l, kinsert (f x) (map f l) = map f (kinsert x l).
Proof.
  intros Hf x l. induction l as [|y l IH]; [reflexivity|]. cbn [map kinsert]. rewrite Hf.
  destruct (Rleb (key x) (key y)); [reflexivity|]. cbn [map]. f_equal. exact IH.
Qed.

End KeyInsert.

Lemma sorted_app_le {A} (le : A -> A -> Prop) (X Y : list A) : StronglySorted le (X ++ Y) ->
  forall x y, In x X -> In y Y -> le x y.
Proof.
  induction X as [|a X IH]; intros Hs x y Hx Hy; [contradiction|].
  cbn [app] in Hs. apply StronglySorted_inv in Hs. destruct Hs as [Hs Ha].
  destruct Hx as [<-|Hx].
  - rewrite Forall_forall in Ha. apply Ha. apply in_or_app. right; exact Hy.
  - exact (IH Hs x y Hx Hy).
Qed.

Lemma insert_kinsert x l : insertR x l = kinsert (fun y => y) x l.
Proof. reflexivity. Qed.

Lemma isort_perm l : Permutation (isortR l) l.
Proof.
  induction l as [|x l IH]; [reflexivity|]. cbn [isort].
  rewrite insert_kinsert, kinsert_perm. constructor. exact IH.
Qed.

Lemma isort_length l : length (isortR l) = length l.
Proof. apply Permutation_length, isort_perm. Qed.

Lemma isort_sorted l : StronglySorted Rle (isortR l).
Proof.
  induction l as [|x l IH]; [constructor|]. cbn [isort]. rewrite insert_kinsert.
  exact (kinsert_sorted (fun y => y) x _ IH).
Qed.

Lemma sorted_perm_eq (l l' : list R) : StronglySorted Rle l -> StronglySorted Rle l' ->
  Permutation l l' -> l = l'.
Proof.
  revert l'; induction l as [|x l IH]; intros l' Hs Hs' Hp.
  - apply Permutation_nil in Hp. subst; reflexivity.
  - destruct l' as [|y l']; [apply Permutation_sym, Permutation_nil in Hp; discriminate|].
    apply StronglySorted_inv in Hs. destruct Hs as [Hs Hx].
    apply StronglySorted_inv in Hs'. destruct Hs' as [Hs' Hy].
    rewrite Forall_forall in Hx, Hy.
    assert (x = y).
    { assert (In x (y :: l')) as Hin by (eapply Permutation_in; [exact Hp|left; reflexivity]).
      assert (In y (x :: l)) as Hin' by (eapply Permutation_in; [symmetry; exact Hp|left; reflexivity]).
      destruct Hin as [->|Hin]; [reflexivity|]. destruct Hin' as [->|Hin']; [reflexivity|].
      specialize (Hx _ Hin'). specialize (Hy _ Hin). lra. }
    subst y. f_equal. apply IH; auto. eapply Permutation_cons_inv; exact Hp.
Qed.

Definition count (p : R -> bool) (l : list R) : nat := length (filter p l).

Lemma count_perm p l l' : Permutation l l' -> count p l = count p l'.
Proof.
  unfold count. induction 1 as [|x l l' H IH|x y l|l l' l'' H1 IH1 H2 IH2]; cbn [filter];
    try reflexivity.
  - destruct (p x); cbn [length]; congruence.
  - destruct (p x), (p y); reflexivity.
  - congruence.
Qed.

Lemma count_app p a b : count p (a ++ b) = (count p a + count p b)%nat.
Proof. unfold count. rewrite filter_app, app_length. reflexivity. Qed.

Lemma count_le_length p l : (count p l <= length l)%nat.
Proof. unfold count. induction l as [|x l IH]; cbn; [lia|]. destruct (p x); cbn; lia. Qed.

Lemma count_none p l : (forall x, In x l -> p x = false) -> count p l = 0%nat.
Proof.
  unfold count. induction l as [|x l IH]; intros H; [reflexivity|]. cbn [filter].
  rewrite (H x (or_introl eq_refl)). apply IH. intros y Hy. apply H. right; exact Hy.
Qed.

Lemma count_all p l : (forall x, In x l -> p x = true) -> count p l = length l.
Proof.
  unfold count. induction l as [|x l IH]; intros H; [reflexivity|]. cbn [filter].
  rewrite (H x (or_introl eq_refl)). cbn [length]. f_equal. apply IH. intros y Hy. apply H. right; exact Hy.
Qed.

Lemma count_pos p l x : In x l -> p x = true -> (1 <= count p l)%nat.
Proof.
  unfold count. induction l as [|y l IH]; intros Hin Hp; [contradiction|]. cbn [filter].
  destruct Hin as [->|Hin]; [rewrite Hp; cbn; lia|]. destruct (p y); cbn; [lia|auto].
Qed.

Lemma mean_bounds lo hi (l : list R) : l <> [] -> (forall x, In x l -> lo <= x <= hi) ->
  lo <= vsumR l / INR (length l) <= hi.
Proof.
  intros Hne Hall.
  assert (Hs : INR (length l) * lo <= vsumR l <= INR (length l) * hi).
  { clear Hne. induction l as [|x l IH]; [cbn; lra|].
    rewrite vsum_cons. cbn [length]. rewrite S_INR.
    pose proof (Hall x (or_introl eq_refl)).
    specialize (IH (fun y Hy => Hall y (or_intror Hy))). lra. }
  assert (Hn : 0 < INR (length l)).
  { apply lt_0_INR. destruct l; [congruence|cbn; lia]. }
  split.
  - apply (Rmult_le_reg_r (INR (length l))); [exact Hn|].
    unfold Rdiv. rewrite Rmult_assoc, Rinv_l by lra. lra.
  - apply (Rmult_le_reg_r (INR (length l))); [exact Hn|].
    unfold Rdiv. rewrite Rmult_assoc, Rinv_l by lra. lra.
Qed.

(* a column with at most b corrupted entries: the entries that survive trimming lie between honest ones *)
Section Robust.
Variables (b : nat) (col honest corrupt : list R) (lo hi : R).
Hypothesis Hperm : Permutation col (honest ++ corrupt).
Hypothesis Hb : (length corrupt <= b)%nat.
Hypothesis Hm : (2 * b + 1 <= length col)%nat.
Hypothesis Hlo : forall h, In h honest -> lo <= h.
Hypothesis Hhi : forall h, In h honest -> h <= hi.

Let S := isortR col.
Let kept := firstn (length col - 2 * b) (skipn b S).

Lemma sorted_three_parts : S = firstn b S ++ kept ++ skipn (length col - 2 * b) (skipn b S).
Proof. unfold kept. rewrite firstn_skipn. rewrite firstn_skipn. reflexivity. Qed.

Lemma sorted_length : length S = length col.
Proof. apply isort_length. Qed.

Lemma top_length : length (skipn (length col - 2 * b) (skipn b S)) = b.
Proof. rewrite !skipn_length, sorted_length. lia. Qed.

Lemma bottom_length : length (firstn b S) = b.
Proof. rewrite firstn_length, sorted_length. lia. Qed.

Lemma kept_length : length kept = (length col - 2 * b)%nat.
Proof. unfold kept. rewrite firstn_length, skipn_length, sorted_length. lia. Qed.

Lemma count_S_le p : (forall h, In h honest -> p h = false) -> (count p S <= b)%nat.
Proof.
  intros Hp. rewrite (count_perm _ S (honest ++ corrupt))
    by (unfold S; rewrite isort_perm; exact Hperm).
  rewrite count_app, (count_none p honest Hp). pose proof (count_le_length p corrupt). lia.
Qed.

(* if x in kept satisfies p then so does every entry of F, the b entries beyond kept on that side:
   that would make b + 1 entries of S satisfying p *)
Lemma crowded_out p (F : list R) x : (count p kept + count p F <= b)%nat -> length F = b ->
  In x kept -> (p x = true -> forall y, In y F -> p y = true) -> p x = false.
Proof.
  intros Hc HF Hx Hup. destruct (p x) eqn:E; [exfalso|reflexivity].
  rewrite (count_all p F (Hup eq_refl)) in Hc. pose proof (count_pos p kept x Hx E). lia.
Qed.

Theorem kept_upper x : In x kept -> x <= hi.
Proof.
  intros Hx. apply Rltb_false.
  pose proof (isort_sorted col) as Hs. fold S in Hs. rewrite sorted_three_parts, app_assoc in Hs.
  pose proof (count_S_le (Rltb hi)) as Hc. rewrite sorted_three_parts, !count_app in Hc.
  apply (crowded_out (Rltb hi) _ x) with (2 := top_length); [|exact Hx|].
  - specialize (Hc (fun h Hh => proj2 (Rltb_false hi h) (Hhi h Hh))). lia.
  - intros E y Hy. apply Rltb_true. apply Rltb_true in E.
    pose proof (sorted_app_le _ _ _ Hs x y (in_or_app _ _ _ (or_intror Hx)) Hy). lra.
Qed.

Theorem kept_lower x : In x kept -> lo <= x.
Proof.
  intros Hx. apply (Rltb_false x lo).
  pose proof (isort_sorted col) as Hs. fold S in Hs. rewrite sorted_three_parts in Hs.
  pose proof (count_S_le (fun y => Rltb y lo)) as Hc. rewrite sorted_three_parts, !count_app in Hc.
  apply (crowded_out (fun y => Rltb y lo) _ x) with (2 := bottom_length); [|exact Hx|].
  - specialize (Hc (fun h Hh => proj2 (Rltb_false h lo) (Hlo h Hh))). lia.
  - intros E y Hy. apply Rltb_true. apply Rltb_true in E.
    pose proof (sorted_app_le _ _ _ Hs y x Hy (in_or_app _ _ _ (or_introl Hx))). lra.
Qed.

Theorem trimmed_robust : lo <= trimmed RN b col <= hi.
Proof.
  unfold trimmed. fold S. fold kept. rn. apply mean_bounds.
  - intros E. apply (f_equal (@length R)) in E. rewrite kept_length in E. cbn in E. lia.
  - intros x Hx. split; [apply kept_lower|apply kept_upper]; exact Hx.
Qed.

End Robust.

Lemma trimmed_mean_columnwise b J : (2 * b + 1 <= length J)%nat ->
  agg_trimmed_mean RN b J = Ok (map (fun j => trimmed RN b (column RN J j)) (seq 0 (ncols J))).
Proof.
  intros H. unfold agg_trimmed_mean. destruct (Nat.ltb_spec (length J) (1 + 2 * b)); [lia|reflexivity].
Qed.

Lemma trimmed_mean_few_rows b J : (length J < 2 * b + 1)%nat ->
  agg_trimmed_mean RN b J = Err ValueError.
Proof.
  intros H. unfold agg_trimmed_mean. destruct (Nat.ltb_spec (length J) (1 + 2 * b)); [reflexivity|lia].
Qed.

Notation insert_idxR := (insert_idx RN).
Notation sort_idxR := (sort_idx RN).

Lemma insert_idx_kinsert p l : insert_idxR p l = kinsert fst p l.
Proof. reflexivity. Qed.

Lemma sort_idx_perm v : Permutation (sort_idxR v) (List.combine v (seq 0 (length v))).
Proof.
  unfold sort_idx. induction (List.combine v (seq 0 (length v))) as [|p l IH]; [reflexivity|].
  cbn [fold_right]. rewrite insert_idx_kinsert, kinsert_perm. constructor. exact IH.
Qed.

Lemma sort_idx_sorted v : StronglySorted (key_le fst) (sort_idxR v).
Proof.
  unfold sort_idx. induction (List.combine v (seq 0 (length v))) as [|p l IH]; [constructor|].
  cbn [fold_right]. rewrite insert_idx_kinsert. exact (kinsert_sorted fst p _ IH).
Qed.

Lemma combine_seq_map (v : list R) : forall s,
  List.combine v (seq s (length v)) = map (fun i => (nth i v 0, (s + i)%nat)) (seq 0 (length v)).
Proof.
  induction v as [|y v IH]; intros s; [reflexivity|].
  cbn [length seq List.combine map nth]. rewrite Nat.add_0_r. f_equal.
  rewrite IH, <- seq_shift, map_map. apply map_ext. intros i. cbn [nth]. f_equal. lia.
Qed.

Lemma sort_idx_in v x i : In (x, i) (sort_idxR v) <-> (i < length v)%nat /\ nth i v 0 = x.
Proof.
  transitivity (In (x, i) (map (fun i => (nth i v 0, (0 + i)%nat)) (seq 0 (length v)))).
  - rewrite <- combine_seq_map. split; apply Permutation_in; [|symmetry]; apply sort_idx_perm.
  - rewrite in_map_iff. split.
    + intros (j & E & Hj). injection E as <- <-. apply in_seq in Hj. split; [lia|reflexivity].
    + intros [Hi <-]. exists i. split; [reflexivity | apply in_seq; lia].
Qed.

Lemma sort_idx_snd_nodup v : NoDup (map snd (sort_idxR v)).
Proof.
  eapply Permutation_NoDup.
  - apply Permutation_map. symmetry. apply sort_idx_perm.
  - rewrite map_snd_combine by (rewrite seq_length; reflexivity). apply seq_NoDup.
Qed.

Theorem smallest_k_spec k v : (k <= length v)%nat ->
  let sel := smallest_k RN k v in
  NoDup sel /\ length sel = k /\ (forall i, In i sel -> (i < length v)%nat) /\
  (forall i j, In i sel -> (j < length v)%nat -> ~ In j sel -> nth i v 0 <= nth j v 0).
Proof.
  intros Hk sel. unfold sel, smallest_k. set (S := sort_idxR v).
  assert (Hlen : length S = length v).
  { unfold S. rewrite (Permutation_length (sort_idx_perm v)), combine_length, seq_length. lia. }
  assert (Hin : forall x i, In (x, i) (firstn k S) -> (i < length v)%nat /\ nth i v 0 = x).
  { intros x i H. apply sort_idx_in. exact (In_firstn k S _ H). }
  split; [|split; [|split]].
  - rewrite <- firstn_map. apply NoDup_firstn. apply sort_idx_snd_nodup.
  - rewrite map_length, firstn_length. lia.
  - intros i Hi. apply in_map_iff in Hi. destruct Hi as ([x i'] & <- & Hi). apply (Hin x i' Hi).
  - intros i j Hi Hj Hnj.
    apply in_map_iff in Hi. destruct Hi as ([x i'] & Hs & Hi). cbn in Hs. subst i'.
    destruct (Hin x i Hi) as [_ Hx].
    assert (Hjin : In (nth j v 0, j) S) by (apply sort_idx_in; auto).
    rewrite <- (firstn_skipn k S) in Hjin. apply in_app_or in Hjin. destruct Hjin as [Hjin|Hjin].
    + exfalso. apply Hnj. exact (in_map snd _ _ Hjin).
    + pose proof (sort_idx_sorted v) as Hs. fold S in Hs. rewrite <- (firstn_skipn k S) in Hs.
      rewrite Hx. exact (sorted_app_le _ _ _ Hs _ _ Hi Hjin).
Qed.

Theorem krum_weights_spec D f k :
  let m := length D in
  let sel := smallest_k RN k (krum_scores RN D (m - f - 2)) in
  NoDup sel ->
  forall i, (i < m)%nat ->
    nth i (krum_weights_of_dist RN D f k) 0 = if in_dec Nat.eq_dec i sel then 1 / INR k else 0.
Proof.
  intros m sel Hnd i Hi. unfold krum_weights_of_dist. fold m. fold sel. rn.
  rewrite (nth_map_seq (fun i0 => INR (count_occ Nat.eq_dec sel i0) / INR k)) by exact Hi.
  destruct (in_dec Nat.eq_dec i sel) as [Hin|Hnin].
  - rewrite NoDup_count_occ' in Hnd. rewrite (Hnd i Hin). cbn. reflexivity.
  - apply (count_occ_not_In Nat.eq_dec) in Hnin. rewrite Hnin. cbn. lra.
Qed.

Lemma length_krum_distances G : length (krum_distances RN G) = length G.
Proof. unfold krum_distances. rewrite map_length. apply seq_length. Qed.

Lemma krum_distances_row G i : (i < length G)%nat ->
  nth i (krum_distances RN G) [] = map (fun j => krum_dist RN G i j) (seq 0 (length G)).
Proof.
  intros Hi. unfold krum_distances.
  exact (nth_map_seq (fun i => map (fun j => krum_dist RN G i j) (seq 0 (length G))) [] _ i Hi).
Qed.

Lemma wfmat_krum_distances G : wfmat (length G) (krum_distances RN G).
Proof. apply wfmat_map. intros i _. rewrite map_length. apply seq_length. Qed.

Lemma mget_krum_distances G i j : (i < length G)%nat -> (j < length G)%nat ->
  mget RN (krum_distances RN G) i j = krum_dist RN G i j.
Proof. exact (mget_table (krum_dist RN G) (length G) i j). Qed.

Lemma length_krum_weights D f k : length (krum_weights_of_dist RN D f k) = length D.
Proof. unfold krum_weights_of_dist. rewrite map_length. apply seq_length. Qed.

Lemma krum_scores_nth D nc i : (i < length D)%nat ->
  nth i (krum_scores RN D nc) 0 = vsumR (skipn 1 (firstn (nc + 1) (isortR (nth i D [])))).
Proof. intros Hi. unfold krum_scores. exact (nth_map_lt _ D i 0 [] Hi). Qed.

Lemma krum_few_rows f k J : (length J < f + 3)%nat \/ (length J < k)%nat ->
  agg_krum RN f k J = Err ValueError.
Proof.
  intros H. unfold agg_krum. destruct (Nat.ltb_spec (length J) (f + 3)); [reflexivity|].
  destruct (Nat.ltb_spec (length J) k); [reflexivity|lia].
Qed.
