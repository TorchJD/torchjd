(* The quadratic programme  min v^T M v, v >= u  behind UPGrad / DualProj (C03, C04), over a
   symmetric M given as a list of rows; then the matrix the aggregators hand to it,
   reg_norm_gramian (gram J) s ne re. *)
From Coq Require Import Reals List Lia Lra.
From TJ Require Import Num Linalg NumR Agg.
From TJ.proofs Require Import LinalgR.
Import ListNotations.
Local Open Scope R_scope.

Definition bil (M : list (list R)) (x y : list R) : R := dotR x (mvR M y).
Definition qf (M : list (list R)) (x : list R) : R := bil M x x.
Definition feasible (u v : list R) : Prop := Forall2 Rle u v.
Definition symm (m : nat) (M : list (list R)) : Prop :=
  forall x y, length x = m -> length y = m -> bil M x y = bil M y x.
Definition psd (m : nat) (M : list (list R)) : Prop :=
  forall x, length x = m -> 0 <= qf M x.
Definition is_min (m : nat) (M : list (list R)) (u w : list R) : Prop :=
  length w = m /\ feasible u w /\
  forall v, length v = m -> feasible u v -> qf M w <= qf M v.

Definition nonneg (v : list R) : Prop := Forall (Rle 0) v.

Section Nonneg.

Lemma nonneg_repeat x k : 0 <= x -> nonneg (repeat x k).
Proof. intros Hx. apply Forall_forall. intros y Hy. apply repeat_spec in Hy. subst; exact Hx. Qed.

Lemma nonneg_onehot k i x : 0 <= x -> nonneg (onehotR k i x).
Proof.
  intros Hx. revert i; induction k as [|k IH]; intros i; [constructor|].
  destruct i; cbn [onehot]; constructor; try (rn; lra); [|apply IH].
  apply nonneg_repeat. rn. lra.
Qed.

Lemma nonneg_nth v i : nonneg v -> 0 <= nth i v 0.
Proof.
  intros Hv; revert i; induction Hv as [|x v Hx Hv IH]; intros [|i]; cbn; try lra. apply IH.
Qed.

Lemma nonneg_vscale c v : 0 <= c -> nonneg v -> nonneg (vscaleR c v).
Proof.
  intros Hc Hv. induction Hv as [|x v Hx Hv IH]; rewrite ?vscale_cons; constructor; [|exact IH].
  apply Rmult_le_pos; assumption.
Qed.

Lemma nonneg_vadd a b : nonneg a -> nonneg b -> nonneg (vaddR a b).
Proof.
  intros Ha; revert b; induction Ha as [|x a Hx Ha IH]; intros b Hb; [constructor|].
  destruct Hb as [|y b Hy Hb]; cbn [vadd]; constructor; [rn; lra | apply IH; exact Hb].
Qed.

Lemma dot_nonneg a b : nonneg a -> nonneg b -> 0 <= dotR a b.
Proof.
  intros Ha; revert b; induction Ha as [|x a Hx Ha IH]; intros b Hb; [cbn; lra|].
  destruct Hb as [|y b Hy Hb]; [cbn; lra|]. rewrite dot_cons. specialize (IH _ Hb).
  assert (0 <= x * y) by (apply Rmult_le_pos; lra). lra.
Qed.

Lemma vsum_nonneg a : nonneg a -> 0 <= vsumR a.
Proof.
  induction 1 as [|x a Hx Ha IH]; [cbn; lra|]. rewrite vsum_cons. lra.
Qed.

Lemma nonneg_vsum0 r : nonneg r -> vsumR r = 0 -> r = vzeroR (length r).
Proof.
  induction 1 as [|x r Hx Hr IH]; intros Hs; [reflexivity|].
  rewrite vsum_cons in Hs. pose proof (vsum_nonneg r Hr) as Hp.
  cbn [length vzero repeat]. f_equal; [rn; lra | apply IH; lra].
Qed.

Lemma dot_self_le_vsum_sq a : nonneg a -> dotR a a <= vsumR a * vsumR a.
Proof.
  induction 1 as [|x a Hx Ha IH]; [cbn; lra|]. rewrite vsum_cons, dot_cons.
  pose proof (Rmult_le_pos _ _ Hx (vsum_nonneg a Ha)) as P.
  replace ((x + vsumR a) * (x + vsumR a))
    with (x * x + 2 * (x * vsumR a) + vsumR a * vsumR a) by ring.
  lra.
Qed.

Lemma dot_lower_bound : forall alpha v mn, nonneg alpha -> length alpha = length v ->
  Forall (Rle mn) v -> mn * vsumR alpha <= dotR alpha v.
Proof.
  induction alpha as [|x alpha IH]; intros [|y v] mn Hn Hl Hall; cbn in Hl; try lia.
  - cbn. lra.
  - rewrite vsum_cons, dot_cons.
    apply Forall_cons_iff in Hn. destruct Hn as [Hx Hn].
    apply Forall_cons_iff in Hall. destruct Hall as [Hy Hall].
    specialize (IH v mn Hn ltac:(lia) Hall).
    pose proof (Rmult_le_compat_l x mn y Hx Hy) as Hxy. lra.
Qed.

End Nonneg.

Section Feasible.

Lemma feasible_length u v : feasible u v -> length u = length v.
Proof. induction 1; cbn; congruence. Qed.

Lemma feasible_refl w : feasible w w.
Proof. induction w; constructor; auto; lra. Qed.

Lemma feasible_trans a b c : feasible a b -> feasible b c -> feasible a c.
Proof.
  intros H; revert c; induction H as [|x y a b Hxy Hab IH]; intros c Hc.
  - inversion Hc; subst. constructor.
  - inversion Hc as [|y' z b' c' Hyz Hbc]; subst. constructor; [lra|apply IH; exact Hbc].
Qed.

Lemma feasible_add_onehot w i t : 0 <= t -> feasible w (vaddR w (onehotR (length w) i t)).
Proof.
  revert i; induction w as [|x w IH]; intros i Ht; [constructor|].
  destruct i; cbn [length onehot vadd].
  - constructor; [rn; lra|]. rewrite vadd_vzero_r by reflexivity. apply feasible_refl.
  - constructor; [rn; lra| apply IH; exact Ht].
Qed.

Lemma feasible_segment_dir : forall u w d t, 0 <= t <= 1 -> length d = length w ->
  feasible u w -> feasible u (vaddR w d) -> feasible u (vaddR w (vscaleR t d)).
Proof.
  intros u w d t Ht Hl Hw. revert d Hl.
  induction Hw as [|a b U W Hab HUW IH]; intros [|e d] Hl Hv; cbn in Hl; try lia.
  - cbn. constructor.
  - cbn [vscale map vadd] in *. fold (vscaleR t d).
    inversion Hv as [|a' b' U' V' Hab' HUV]; subst. rn.
    constructor; [|apply IH; [lia | exact HUV]].
    assert (0 <= t * (b + e - a)) by (apply Rmult_le_pos; lra).
    assert (0 <= (1 - t) * (b - a)) by (apply Rmult_le_pos; lra).
    lra.
Qed.

Lemma feasible_nth u v : feasible u v -> forall i, nth i u 0 <= nth i v 0.
Proof.
  induction 1 as [|x y u v Hxy Huv IH]; intros i; destruct i; cbn [nth]; try lra. apply IH.
Qed.

Lemma feasible_vscale k u w : 0 <= k -> feasible u w -> feasible (vscaleR k u) (vscaleR k w).
Proof.
  intros Hk. induction 1 as [|a b U W Hab HUW IH]; cbn [vscale map]; constructor; [|exact IH].
  rn. apply Rmult_le_compat_l; assumption.
Qed.

End Feasible.

Section Forms.

Lemma bil_vscale_l M c x y : bil M (vscaleR c x) y = c * bil M x y.
Proof. apply dot_vscale_l. Qed.

Lemma bil_mscale k G x y : bil (mscale RN k G) x y = k * bil G x y.
Proof. unfold bil. rewrite mv_mscale, dot_vscale_r. reflexivity. Qed.

Lemma bil_onehot_l m M i w : length M = m ->
  bil M (onehotR m i 1) w = nth i (mvR M w) 0.
Proof.
  intros HM. unfold bil. rewrite dot_onehot by (rewrite length_mv; exact HM).
  apply Rmult_1_l.
Qed.

Lemma qf_vscale M k x : qf M (vscaleR k x) = k * k * qf M x.
Proof. unfold qf, bil. rewrite mv_vscale, dot_vscale_l, dot_vscale_r. ring. Qed.

Lemma qf_vadd m M w d : symm m M -> length w = m -> length d = m ->
  qf M (vaddR w d) = qf M w + 2 * bil M d w + qf M d.
Proof.
  intros Hs Hw Hd. unfold qf, bil.
  rewrite mv_vadd by congruence.
  rewrite dot_vadd_l by congruence.
  rewrite !dot_vadd_r by (rewrite !length_mv; reflexivity).
  pose proof (Hs w d Hw Hd) as E. unfold bil in E. rewrite E. lra.
Qed.

Lemma qf_lincomb m M a b u w : symm m M -> length u = m -> length w = m ->
  qf M (vaddR (vscaleR a u) (vscaleR b w)) =
  a * a * qf M u + 2 * (a * b) * bil M u w + b * b * qf M w.
Proof.
  intros Hs Hu Hw. unfold qf, bil.
  rewrite mv_vadd by (rewrite !length_vscale; congruence). rewrite !mv_vscale.
  rewrite dot_bilin by (rewrite ?length_mv; congruence).
  pose proof (Hs w u Hw Hu) as E. unfold bil in E. rewrite E. ring.
Qed.

Lemma qf_vsub m M x y : symm m M -> length x = m -> length y = m ->
  qf M (vsubR x y) = qf M x - 2 * bil M x y + qf M y.
Proof.
  intros Hs Hx Hy.
  replace (vsubR x y) with (vaddR (vscaleR 1 x) (vscaleR (-1) y))
    by (rewrite vscale_one; symmetry; apply vsub_vadd_opp).
  rewrite (qf_lincomb m) by assumption. ring.
Qed.

Lemma symm_gram n J : wfmat n J -> symm (length J) (gramR J).
Proof. intros HJ x y. exact (bil_gram_sym n J x y HJ). Qed.

Lemma psd_gram n J : wfmat n J -> psd (length J) (gramR J).
Proof. intros HJ x. exact (quad_gram_nonneg n J x HJ). Qed.

Lemma bil_cauchy_schwarz m M x y : symm m M -> psd m M -> length x = m -> length y = m ->
  bil M x y * bil M x y <= qf M x * qf M y.
Proof.
  intros Hs Hp Hx Hy. apply discr_real; [apply Hp; exact Hx|]. intros t.
  pose proof (Hp (vaddR (vscaleR t x) (vscaleR 1 y))) as H.
  rewrite (qf_lincomb m) in H by assumption.
  specialize (H ltac:(rewrite length_vadd; rewrite !length_vscale; congruence)). lra.
Qed.

Lemma qf_gram n J v : wfmat n J -> length v = length J ->
  qf (gramR J) v = dotR (vmR n v J) (vmR n v J).
Proof. exact (quad_gram n J v). Qed.

End Forms.

Section KKT.

Inductive kktP : list R -> list R -> list R -> Prop :=
| kkt_nil : kktP [] [] []
| kkt_cons g x y G W U : y <= x -> 0 <= g -> g * (x - y) = 0 -> kktP G W U ->
    kktP (g :: G) (x :: W) (y :: U).

Lemma kkt_rows_P G W U : kkt_rows RN G W U = true -> kktP G W U.
Proof.
  revert W U; induction G as [|g G IH]; intros [|x W] [|y U] H; cbn [kkt_rows] in H;
    try discriminate; [constructor|].
  rn. apply andb_prop in H. destruct H as [H H4]. apply andb_prop in H. destruct H as [H H3].
  apply andb_prop in H. destruct H as [H1 H2]. apply andb_prop in H3. destruct H3 as [H3a H3b].
  apply Rleb_true in H1, H2, H3a, H3b.
  constructor; auto. lra.
Qed.

Lemma kktP_refl g u : length g = length u -> nonneg g -> kktP g u u.
Proof.
  revert u; induction g as [|x g IH]; intros [|y u] Hl Hg; cbn in Hl; try lia; [constructor|].
  apply Forall_cons_iff in Hg. destruct Hg as [Hx Hg].
  constructor; [apply Rle_refl | exact Hx | ring | apply IH; [lia | exact Hg]].
Qed.

Lemma kktP_feasible G W U : kktP G W U -> feasible U W.
Proof. induction 1; constructor; auto. Qed.

Lemma kktP_dir G W U : kktP G W U -> forall v, feasible U v -> 0 <= dotR (vsubR v W) G.
Proof.
  induction 1 as [|g x y G W U H1 H2 H3 HK IH]; intros v Hv.
  - inversion Hv; subst. cbn. lra.
  - inversion Hv as [|y' v0 U' V' Hy HV]; subst. cbn [vsub]. rewrite dot_cons. rn.
    specialize (IH _ HV).
    assert ((v0 - x) * g = (v0 - y) * g) by nra.
    assert (0 <= (v0 - y) * g) by (apply Rmult_le_pos; lra). lra.
Qed.

Theorem kktP_sound m M u w : symm m M -> psd m M ->
  length w = m -> kktP (mvR M w) w u -> is_min m M u w.
Proof.
  intros Hs Hp Hw HK. split; [exact Hw|]. split; [eapply kktP_feasible; exact HK|].
  intros v Hv Hf.
  pose proof (kktP_dir _ _ _ HK v Hf) as Hdir.
  set (d := vsubR v w) in *.
  assert (Hd : length d = m) by (unfold d; rewrite length_vsub; congruence).
  rewrite <- (vadd_vsub w v), (qf_vadd m) by (assumption || congruence). fold d.
  pose proof (Hp d Hd). unfold bil. lra.
Qed.

Theorem kktb_sound m M u w : length M = m -> symm m M -> psd m M ->
  length w = m -> kktb RN M u w = true -> is_min m M u w.
Proof.
  intros _ Hs Hp Hw HK. exact (kktP_sound m M u w Hs Hp Hw (kkt_rows_P _ _ _ HK)).
Qed.

End KKT.

Section FirstOrder.

Lemma first_order_real B Q : (forall t, 0 < t <= 1 -> 0 <= 2 * t * B + t * t * Q) -> 0 <= B.
Proof.
  intros H. destruct (Rle_dec 0 B) as [HB|HB]; [exact HB|]. exfalso. apply Rnot_le_lt in HB.
  destruct (Rle_dec Q (- B)) as [HQ|HQ].
  - specialize (H 1 ltac:(lra)). lra.
  - apply Rnot_le_lt in HQ. assert (HQ0 : 0 < Q) by lra.
    set (t := - B / Q).
    assert (HtQ : t * Q = - B) by (unfold t; field; lra).
    assert (Ht0 : 0 < t) by (unfold t; apply Rdiv_lt_0_compat; lra).
    assert (Ht1 : t < 1) by (apply (Rmult_lt_reg_r Q); lra).
    specialize (H t ltac:(lra)).
    replace (2 * t * B + t * t * Q) with (2 * t * B + t * (t * Q)) in H by ring.
    rewrite HtQ in H.
    pose proof (Rmult_lt_0_compat t (- B) Ht0 ltac:(lra)) as Hp. lra.
Qed.

Theorem is_min_first_order m M u w d : symm m M -> is_min m M u w ->
  length d = m -> feasible u (vaddR w d) -> 0 <= bil M d w.
Proof.
  intros Hs (Hw & Hf & Hmin) Hd Hfd.
  apply (first_order_real _ (qf M d)). intros t Ht.
  assert (Hltd : length (vscaleR t d) = m) by (rewrite length_vscale; exact Hd).
  assert (Hl : length (vaddR w (vscaleR t d)) = m) by (rewrite length_vadd; congruence).
  assert (Hft : feasible u (vaddR w (vscaleR t d))).
  { apply feasible_segment_dir; [lra | congruence | exact Hf | exact Hfd]. }
  specialize (Hmin _ Hl Hft).
  rewrite (qf_vadd m), bil_vscale_l, qf_vscale in Hmin by assumption. lra.
Qed.
Print Assumptions is_min_first_order.

Lemma min_variational m M u w v : symm m M -> is_min m M u w -> length v = m -> feasible u v ->
  0 <= bil M (vsubR v w) w.
Proof.
  intros Hs Hmin Hv Hf. pose proof Hmin as (Hw & _).
  apply (is_min_first_order m M u); [exact Hs | exact Hmin | rewrite length_vsub; congruence |].
  rewrite vadd_vsub by congruence. exact Hf.
Qed.

(* two problems over the same feasible set whose forms differ by e <.,.>: the variational inequality
   at each minimiser towards the other bounds the form on their difference *)
Lemma is_min_diff_perturbed m G Ge e u w0 we : symm m G -> symm m Ge ->
  (forall x y, length x = m -> length y = m -> bil Ge x y = bil G x y + e * dotR x y) ->
  is_min m G u w0 -> is_min m Ge u we ->
  qf G (vsubR we w0) <= e * dotR we (vsubR w0 we).
Proof.
  intros HsG HsGe Hbil H0 H1. pose proof H0 as (Hl0 & Hf0 & _). pose proof H1 as (Hl1 & Hf1 & _).
  pose proof (min_variational m G u w0 we HsG H0 Hl1 Hf1) as V0.
  pose proof (min_variational m Ge u we w0 HsGe H1 Hl0 Hf0) as V1.
  rewrite Hbil, (dot_comm _ we) in V1 by (rewrite ?length_vsub; congruence).
  unfold qf. unfold bil in *. rewrite mv_vsub, dot_vsub_r by (rewrite ?length_mv; congruence).
  rewrite !dot_vsub_l by congruence. rewrite dot_vsub_l in V0, V1 by congruence. lra.
Qed.

Lemma is_min_diff_qf m M u w1 w2 : symm m M ->
  is_min m M u w1 -> is_min m M u w2 -> qf M (vsubR w2 w1) <= 0.
Proof.
  intros Hsym H1 H2. rewrite <- (Rmult_0_l (dotR w2 (vsubR w1 w2))).
  apply (is_min_diff_perturbed m M M 0 u); try assumption. intros x y _ _. ring.
Qed.

(* first-order optimality along e_i *)
Lemma min_grad_nonneg m M u w i : length M = m -> symm m M -> is_min m M u w ->
  0 <= nth i (mvR M w) 0.
Proof.
  intros HM Hs Hmin. pose proof Hmin as (Hw & Hf & _).
  assert (Hfe : feasible u (vaddR w (onehotR m i 1))).
  { eapply feasible_trans; [exact Hf|]. rewrite <- Hw. apply feasible_add_onehot. lra. }
  pose proof (is_min_first_order m M u w _ Hs Hmin (length_onehot _ _ _) Hfe) as H.
  rewrite (bil_onehot_l m) in H by exact HM. lra.
Qed.

Theorem min_sign m M u w i : length M = m -> symm m M -> is_min m M u w -> (i < m)%nat ->
  0 < qf M (onehotR m i 1) -> 0 <= nth i (mvR M w) 0.
Proof. intros HM Hs Hmin _ _. apply (min_grad_nonneg m M u); assumption. Qed.

End FirstOrder.

Section StrongConvexity.

Definition sconv (m : nat) (M : list (list R)) (re : R) : Prop :=
  symm m M /\ forall x, length x = m -> re * dotR x x <= qf M x.

Lemma sconv_psd m M re : 0 <= re -> sconv m M re -> psd m M.
Proof.
  intros Hre [_ HL] x Hx. pose proof (HL x Hx). pose proof (dot_self_nonneg x).
  assert (0 <= re * dotR x x) by (apply Rmult_le_pos; assumption). lra.
Qed.

(* two minimisers differ by a direction d with q(d) <= 0, which strong convexity forces to be zero *)
Theorem min_unique_sc m M re u w1 w2 : sconv m M re -> 0 < re ->
  is_min m M u w1 -> is_min m M u w2 -> w1 = w2.
Proof.
  intros [Hsym HL] Hre H1 H2. pose proof H1 as (Hl1 & _). pose proof H2 as (Hl2 & _).
  pose proof (is_min_diff_qf m M u w1 w2 Hsym H1 H2) as Z.
  assert (Hd : length (vsubR w2 w1) = m) by (rewrite length_vsub; congruence).
  pose proof (HL _ Hd) as L. pose proof (dot_self_nonneg (vsubR w2 w1)) as P.
  symmetry. apply vsub_norm_zero_eq; [congruence | nra].
Qed.

(* when M u >= 0 the pair (M u, u) is its own KKT certificate *)
Lemma min_at_bound m M re u : length M = m -> sconv m M re -> 0 <= re -> length u = m ->
  nonneg (mvR M u) -> is_min m M u u.
Proof.
  intros HM Hsc Hre Hl Hg.
  apply kktP_sound; [exact (proj1 Hsc) | exact (sconv_psd m M re Hre Hsc) | exact Hl |].
  apply kktP_refl; [rewrite length_mv; congruence | exact Hg].
Qed.

Lemma min_at_bound_unique m M re u w : length M = m -> sconv m M re -> 0 < re -> length u = m ->
  nonneg (mvR M u) -> is_min m M u w -> w = u.
Proof.
  intros HM Hsc Hre Hl Hg Hw. apply (min_unique_sc m M re u w u Hsc Hre Hw).
  exact (min_at_bound m M re u HM Hsc (Rlt_le _ _ Hre) Hl Hg).
Qed.

End StrongConvexity.

(* minimisers travel along a substitution v = T x with left inverse S under which the form scales,
   qf M' v = k qf M (S v) *)
Lemma is_min_subst m M M' u u' (S T : list R -> list R) k :
  0 < k ->
  (forall v, length v = m -> length (S v) = m) -> (forall x, length x = m -> length (T x) = m) ->
  (forall x, length x = m -> S (T x) = x) ->
  (forall v, length v = m -> qf M' v = k * qf M (S v)) ->
  (forall v, length v = m -> feasible u' v -> feasible u (S v)) ->
  (forall x, length x = m -> feasible u x -> feasible u' (T x)) ->
  (forall w, is_min m M u w -> is_min m M' u' (T w)) /\
  (forall z, is_min m M' u' z -> is_min m M u (S z)).
Proof.
  intros Hk HS HT HST Hq HfS HfT. split.
  - intros w (Hw & Hf & Hmin). split; [apply HT; exact Hw|]. split; [apply HfT; assumption|].
    intros v Hv Hfv. rewrite (Hq _ (HT w Hw)), (Hq v Hv), (HST w Hw).
    apply Rmult_le_compat_l; [lra|]. apply Hmin; [apply HS | apply HfS]; assumption.
  - intros z (Hz & Hf & Hmin). split; [apply HS; exact Hz|]. split; [apply HfS; assumption|].
    intros v Hv Hfv. specialize (Hmin (T v) (HT v Hv) (HfT v Hv Hfv)).
    rewrite (Hq z Hz), (Hq _ (HT v Hv)), (HST v Hv) in Hmin.
    apply (Rmult_le_reg_l k); assumption.
Qed.

Section RegNormGramian.

Lemma length_add_diag eps : forall M k, length (add_diag_from RN k eps M) = length M.
Proof. induction M as [|r M IH]; intros k; cbn [add_diag_from length]; congruence. Qed.

Lemma wfmat_add_diag m eps : forall M k, wfmat m M -> wfmat m (add_diag_from RN k eps M).
Proof.
  induction M as [|r M IH]; intros k H; cbn [add_diag_from]; [constructor|].
  apply Forall_cons_iff in H. destruct H as [Hr HM]. constructor; [|apply IH; exact HM].
  rewrite length_vadd; [exact Hr|]. rewrite length_onehot. reflexivity.
Qed.

Lemma nth_add_diag eps : forall M k i, (i < length M)%nat ->
  nth i (add_diag_from RN k eps M) [] =
  vaddR (nth i M []) (onehotR (length (nth i M [])) (k + i) eps).
Proof.
  induction M as [|r M IH]; intros k i Hi; cbn [length] in Hi; [lia|].
  destruct i as [|i]; cbn [add_diag_from nth].
  - rewrite Nat.add_0_r. reflexivity.
  - rewrite IH by lia. rewrite Nat.add_succ_r. reflexivity.
Qed.

Lemma length_normalized_gramian G s ne : length (normalized_gramian RN G s ne) = length G.
Proof.
  unfold normalized_gramian. destruct (nltb RN s ne); [apply length_mzero | apply length_mscale].
Qed.

Lemma wfmat_normalized_gramian m G s ne : length G = m -> wfmat m G ->
  wfmat m (normalized_gramian RN G s ne).
Proof.
  intros HG Hwf. unfold normalized_gramian. rewrite HG.
  destruct (nltb RN s ne); [apply wfmat_mzero | apply wfmat_map_rows; [apply length_vscale | exact Hwf]].
Qed.

Lemma length_reg_norm_gramian G s ne re : length (reg_norm_gramian RN G s ne re) = length G.
Proof.
  unfold reg_norm_gramian, regularize. rewrite length_add_diag. apply length_normalized_gramian.
Qed.

Lemma wfmat_reg_norm_gramian m G s ne re : length G = m -> wfmat m G ->
  wfmat m (reg_norm_gramian RN G s ne re).
Proof. intros HG Hwf. apply wfmat_add_diag, wfmat_normalized_gramian; assumption. Qed.

Lemma length_M J s ne re : length (reg_norm_gramian RN (gramR J) s ne re) = length J.
Proof. rewrite length_reg_norm_gramian. apply length_gram. Qed.

Lemma normalized_gramian_big G s ne : nltb RN s ne = false ->
  normalized_gramian RN G s ne = mscaleR (1 / (s * s)) G.
Proof. intros H. unfold normalized_gramian. rewrite H. reflexivity. Qed.

Lemma normalized_gramian_small G s ne : nltb RN s ne = true ->
  normalized_gramian RN G s ne = mzero RN (length G).
Proof. intros H. unfold normalized_gramian. rewrite H. reflexivity. Qed.

Lemma mv_add_diag eps M : forall k x, wfmat (length x) M ->
  mvR (add_diag_from RN k eps M) x =
  vaddR (mvR M x) (map (fun i => eps * nth i x 0) (seq k (length M))).
Proof.
  induction M as [|r M IH]; intros k x H; [reflexivity|].
  apply Forall_cons_iff in H; destruct H as [Hr HM].
  cbn [add_diag_from mv map length seq vadd]. fold (mvR (add_diag_from RN (S k) eps M) x) (mvR M x).
  rewrite IH by exact HM. f_equal.
  rewrite dot_vadd_l by (rewrite length_onehot; reflexivity).
  rn. f_equal. rewrite Hr. apply dot_onehot. reflexivity.
Qed.

Lemma mv_regularize eps M x : wfmat (length x) M -> length M = length x ->
  mvR (regularize RN M eps) x = vaddR (mvR M x) (vscaleR eps x).
Proof.
  intros H Hl. unfold regularize. rewrite mv_add_diag by exact H. f_equal.
  rewrite Hl. unfold vscale. rn. rewrite <- (map_nth_seq x 0) at 2. rewrite map_map. reflexivity.
Qed.

Lemma mget_regularize m M eps i j : wfmat m M -> (i < length M)%nat -> (j < m)%nat ->
  mget RN (regularize RN M eps) i j = mget RN M i j + (if Nat.eqb i j then eps else 0).
Proof.
  intros Hwf Hi Hj. unfold mget, regularize. rewrite nth_add_diag by exact Hi. rn.
  rewrite nth_vadd by (rewrite length_onehot; reflexivity).
  rewrite (wfmat_nth m M i Hwf Hi). rewrite nth_onehot by exact Hj. reflexivity.
Qed.

(* below norm_eps: M = reg_eps I *)
Lemma mv_M_small G s ne re x : nltb RN s ne = true -> length x = length G ->
  mvR (reg_norm_gramian RN G s ne re) x = vscaleR re x.
Proof.
  intros Hne Hx. unfold reg_norm_gramian. rewrite normalized_gramian_small by exact Hne.
  rewrite mv_regularize.
  - rewrite mv_mzero. apply vadd_vzero_l. rewrite length_vscale. exact Hx.
  - rewrite Hx. apply wfmat_mzero.
  - unfold mzero. rewrite repeat_length. symmetry; exact Hx.
Qed.

Lemma sconv_small G s ne re : nltb RN s ne = true ->
  sconv (length G) (reg_norm_gramian RN G s ne re) re.
Proof.
  intros Hne.
  assert (Hb : forall x y, length y = length G ->
             bil (reg_norm_gramian RN G s ne re) x y = re * dotR x y).
  { intros x y Hy. unfold bil. rewrite mv_M_small by assumption. apply dot_vscale_r. }
  split.
  - intros x y Hx Hy. rewrite !Hb by assumption. rewrite dot_comm. reflexivity.
  - intros x Hx. unfold qf. rewrite Hb by assumption. lra.
Qed.

(* at or above norm_eps: M = G / s^2 + reg_eps I *)
Lemma c_pos s : 0 < s -> 0 < 1 / (s * s).
Proof. intros Hs. apply Rdiv_lt_0_compat; nra. Qed.

Lemma length_normalized_gram J s ne :
  length (normalized_gramian RN (gramR J) s ne) = length J.
Proof. rewrite length_normalized_gramian. apply length_gram. Qed.

Lemma symm_normalized n J s ne : wfmat n J -> nltb RN s ne = false ->
  symm (length J) (normalized_gramian RN (gramR J) s ne).
Proof.
  intros HJ Hsne x y Hx Hy. rewrite normalized_gramian_big by exact Hsne. rewrite !bil_mscale.
  f_equal. apply (symm_gram n); assumption.
Qed.

Lemma psd_normalized n J s ne : wfmat n J -> 0 < s -> nltb RN s ne = false ->
  psd (length J) (normalized_gramian RN (gramR J) s ne).
Proof.
  intros HJ Hs Hsne x Hx. unfold qf. rewrite normalized_gramian_big by exact Hsne. rewrite bil_mscale.
  apply Rmult_le_pos; [apply Rlt_le, c_pos; exact Hs | apply (psd_gram n); assumption].
Qed.

Lemma mv_M J s ne re : nltb RN s ne = false -> forall x, length x = length J ->
  mvR (reg_norm_gramian RN (gramR J) s ne re) x =
  vaddR (vscaleR (1 / (s * s)) (mvR (gramR J) x)) (vscaleR re x).
Proof.
  intros Hne x Hx. unfold reg_norm_gramian. rewrite normalized_gramian_big by exact Hne.
  rewrite mv_regularize, mv_mscale; [reflexivity | |].
  - apply wfmat_map_rows; [apply length_vscale|]. rewrite Hx. apply wfmat_gram.
  - rewrite length_mscale, length_gram. symmetry; exact Hx.
Qed.

Lemma bil_M J s ne re : nltb RN s ne = false -> forall x y, length x = length J -> length y = length J ->
  bil (reg_norm_gramian RN (gramR J) s ne re) x y =
  1 / (s * s) * bil (gramR J) x y + re * dotR x y.
Proof.
  intros Hne x y Hx Hy. unfold bil. rewrite mv_M by assumption.
  rewrite dot_vadd_r by (rewrite !length_vscale, length_mv, length_gram; congruence).
  rewrite !dot_vscale_r. reflexivity.
Qed.

Lemma symm_M n J s ne re : wfmat n J -> nltb RN s ne = false ->
  symm (length J) (reg_norm_gramian RN (gramR J) s ne re).
Proof.
  intros HJ Hne x y Hx Hy. rewrite !bil_M by assumption. unfold bil.
  rewrite (bil_gram_sym n J x y) by assumption. rewrite (dot_comm x y). reflexivity.
Qed.

Lemma qf_M_lower n J s ne re : wfmat n J -> 0 < s -> nltb RN s ne = false ->
  forall x, length x = length J -> re * dotR x x <= qf (reg_norm_gramian RN (gramR J) s ne re) x.
Proof.
  intros HJ Hs Hne x Hx. unfold qf. rewrite bil_M by assumption. unfold bil.
  pose proof (quad_gram_nonneg n J x HJ Hx). pose proof (c_pos s Hs).
  assert (0 <= 1 / (s * s) * dotR x (mvR (gramR J) x)) by (apply Rmult_le_pos; lra). lra.
Qed.

Lemma sconv_reg_norm_gramian n J s ne re : wfmat n J -> (nltb RN s ne = false -> 0 < s) ->
  sconv (length J) (reg_norm_gramian RN (gramR J) s ne re) re.
Proof.
  intros HJ Hs. destruct (nltb RN s ne) eqn:Hne.
  - rewrite <- (length_gram J). apply sconv_small. exact Hne.
  - split; [apply (symm_M n) | apply (qf_M_lower n)]; auto.
Qed.

Lemma psd_M n J s ne re : wfmat n J -> 0 < s -> 0 <= re ->
  psd (length J) (reg_norm_gramian RN (gramR J) s ne re).
Proof.
  intros HJ Hs Hre. apply (sconv_psd _ _ re Hre).
  apply (sconv_reg_norm_gramian n); [exact HJ | intros _; exact Hs].
Qed.

Theorem min_unique n J s ne re : wfmat n J -> 0 < s -> nltb RN s ne = false ->
  forall u w1 w2, 0 < re ->
  is_min (length J) (reg_norm_gramian RN (gramR J) s ne re) u w1 ->
  is_min (length J) (reg_norm_gramian RN (gramR J) s ne re) u w2 -> w1 = w2.
Proof.
  intros HJ Hs Hne u w1 w2 Hre. apply (min_unique_sc _ _ re); [|exact Hre].
  apply (sconv_reg_norm_gramian n); [exact HJ | intros _; exact Hs].
Qed.

End RegNormGramian.

(* the allowances of C04:  (J (w . J))_i >= - re s^2 w_i  whenever (M w)_i >= 0, which holds at every
   minimiser; M is the branch at or above norm_eps *)
Section Allowances.
Variables (n : nat) (J : list (list R)) (s ne re : R).
Hypothesis HJ : wfmat n J.
Hypothesis Hs : 0 < s.
Hypothesis Hne : nltb RN s ne = false.
Let m := length J.
Let M := reg_norm_gramian RN (gramR J) s ne re.

Lemma allowance_of_sign w i : length w = m ->
  0 <= nth i (mvR M w) 0 ->
  - re * (s * s) * nth i w 0 <= nth i (mvR J (vmR n w J)) 0.
Proof.
  intros Hw H. unfold M in H. rewrite mv_M in H by assumption.
  rewrite nth_vadd in H by (rewrite !length_vscale, length_mv, length_gram; exact (eq_sym Hw)).
  rewrite !nth_vscale in H. rewrite (mv_gram n) in H by assumption.
  set (g := nth i (mvR J (vmR n w J)) 0) in *. set (wi := nth i w 0) in *.
  assert (Hq : 0 < s * s) by (apply Rmult_lt_0_compat; exact Hs).
  apply (Rmult_le_compat_r (s * s)) in H; [|lra]. rewrite Rmult_0_l in H.
  replace ((1 / (s * s) * g + re * wi) * (s * s)) with (g + re * (s * s) * wi) in H by (field; lra).
  lra.
Qed.

Lemma min_mv_nonneg u w i : is_min m M u w -> 0 <= nth i (mvR M w) 0.
Proof using HJ Hs.
  apply (min_grad_nonneg m M u); [apply length_M|].
  apply (sconv_reg_norm_gramian n J s ne re HJ (fun _ => Hs)).
Qed.

Theorem dualproj_allowance u w i : is_min m M u w ->
  - re * (s * s) * nth i w 0 <= nth i (mvR J (vmR n w J)) 0.
Proof.
  intros Hmin. apply allowance_of_sign; [exact (proj1 Hmin) | exact (min_mv_nonneg u w i Hmin)].
Qed.

(* UPGrad: the weights are a sum of minimisers *)
Theorem upgrad_allowance (W : list (list R)) (us : list (list R)) i :
  Forall2 (fun u w => is_min m M u w) us W ->
  let w := vsum_rows RN m W in
  - re * (s * s) * nth i w 0 <= nth i (mvR J (vmR n w J)) 0.
Proof.
  intros HW w.
  assert (HWl : wfmat m W)
    by exact (Forall2_Forall_r _ _ us W (fun u w0 Hmin => proj1 Hmin) HW).
  apply allowance_of_sign; [apply length_vsum_rows; exact HWl|].
  unfold w. rewrite (mv_vsum_rows M m) by exact HWl.
  apply nth_vsum_rows_nonneg, Forall_map.
  exact (Forall2_Forall_r _ _ us W
           (fun u w0 Hmin => conj (length_mv M w0) (min_mv_nonneg u w0 i Hmin)) HW).
Qed.

End Allowances.

Section NoConflict.

(* no conflict between the rows, or s below norm_eps: M u >= 0, so the minimiser is u itself *)
Lemma nonneg_mv_gram J u : (forall r r', In r J -> In r' J -> 0 <= dotR r r') -> nonneg u ->
  nonneg (mvR (gramR J) u).
Proof.
  intros HJ Hu. unfold mv, gram. rewrite map_map. apply Forall_forall. intros x Hx.
  apply in_map_iff in Hx. destruct Hx as (r & <- & Hr). apply dot_nonneg; [|exact Hu].
  apply Forall_forall. intros y Hy. apply in_map_iff in Hy. destruct Hy as (r' & <- & Hr').
  apply HJ; assumption.
Qed.

Lemma nonneg_mv_M J s ne re u : 0 < s -> nltb RN s ne = false -> 0 <= re ->
  (forall r r', In r J -> In r' J -> 0 <= dotR r r') -> length u = length J -> nonneg u ->
  nonneg (mvR (reg_norm_gramian RN (gramR J) s ne re) u).
Proof.
  intros Hs Hne Hre Hnc Hl Hu. rewrite mv_M by assumption. apply nonneg_vadd.
  - apply nonneg_vscale; [left; apply c_pos; exact Hs|]. apply nonneg_mv_gram; assumption.
  - apply nonneg_vscale; assumption.
Qed.

Theorem no_conflict_min n J s ne re u : wfmat n J -> 0 < s -> nltb RN s ne = false -> 0 <= re ->
  (forall r r', In r J -> In r' J -> 0 <= dotR r r') ->
  length u = length J -> nonneg u ->
  is_min (length J) (reg_norm_gramian RN (gramR J) s ne re) u u.
Proof.
  intros HJ Hs Hne Hre Hnc Hl Hu.
  apply (min_at_bound _ _ re); [apply length_M | | exact Hre | exact Hl | apply nonneg_mv_M; assumption].
  apply (sconv_reg_norm_gramian n); [exact HJ | intros _; exact Hs].
Qed.

(* hence, with reg_eps > 0, ANY answer of a correct QP oracle is u itself *)
Theorem no_conflict_unique n J s ne re u w : wfmat n J -> 0 < s -> nltb RN s ne = false -> 0 < re ->
  (forall r r', In r J -> In r' J -> 0 <= dotR r r') ->
  length u = length J -> nonneg u ->
  is_min (length J) (reg_norm_gramian RN (gramR J) s ne re) u w -> w = u.
Proof.
  intros HJ Hs Hne Hre Hnc Hl Hu.
  apply (min_at_bound_unique _ _ re);
    [apply length_M | | exact Hre | exact Hl | apply nonneg_mv_M; (assumption || exact (Rlt_le _ _ Hre))].
  apply (sconv_reg_norm_gramian n); [exact HJ | intros _; exact Hs].
Qed.

Theorem below_norm_eps_unique G s ne re u w : nltb RN s ne = true -> 0 < re ->
  length u = length G -> nonneg u ->
  is_min (length G) (reg_norm_gramian RN G s ne re) u w -> w = u.
Proof.
  intros Hne Hre Hl Hu.
  apply (min_at_bound_unique _ _ re);
    [apply length_reg_norm_gramian | apply sconv_small; exact Hne | exact Hre | exact Hl |].
  rewrite mv_M_small by assumption. apply nonneg_vscale; [exact (Rlt_le _ _ Hre) | exact Hu].
Qed.

End NoConflict.
