(* C10 (row permutations) for CAGrad: the weighting is equivariant when the conic solver's answer
   travels with the rows (same sigma_max oracle), and the optimality contract transfers.
   C10 for Aligned-MTL: the balance matrix built from the eigh oracle is equivariant when the
   eigenvectors are permuted componentwise, and the eigen-contract transfers.
   C09 for UPGrad without regularisation: the minimisers of the unregularised dual QP transform
   covariantly under positive row scaling, the projected rows are unique, and the output of
   UPGrad on diag(c) J is  sum_i c_i pi_i(J)  : LINEAR in c. *)
From Coq Require Import Reals List Lia Lra.
From TJ Require Import Num Linalg NumR Agg.
From TJ.proofs Require Import LinalgR QPProofs C03Proofs C18Proofs C08Proofs C10Proofs EquivarianceProofs PublishedProofs ImpartialProofs ScalingProofs.
Import ListNotations.
Local Open Scope R_scope.

Lemma quadform_qf M x : quadform RN M x = qf M x.
Proof. reflexivity. Qed.

(* the uniform weights are a fixed point of every permutation: what a matrix does to them *)

Lemma mv_permM_mean m G p : length G = m -> wfmat m G -> is_perm m p ->
  mvR (permM p G) (mean_weights RN m) = permR p (mvR G (mean_weights RN m)).
Proof.
  intros HG Hwf Hp. pose proof (mv_permM m G p _ HG Hwf Hp (length_mean m)) as E.
  rewrite (permR_mean m p Hp) in E. exact E.
Qed.

Lemma qf_permM_mean m G p : length G = m -> wfmat m G -> is_perm m p ->
  qf (permM p G) (mean_weights RN m) = qf G (mean_weights RN m).
Proof.
  intros HG Hwf Hp. pose proof (qf_perm m G p _ HG Hwf Hp (length_mean m)) as E.
  rewrite (permR_mean m p Hp) in E. exact E.
Qed.

Lemma normalized_gramian_perm m G p s ne : length G = m -> is_perm m p ->
  normalized_gramian RN (permM p G) s ne = permM p (normalized_gramian RN G s ne).
Proof.
  intros HG Hp. pose proof (is_perm_length m p Hp) as Hl.
  unfold normalized_gramian. rewrite length_permM, Hl, HG.
  destruct (nltb RN s ne).
  - apply (mzero_perm m p Hp).
  - apply mscale_perm.
Qed.

Lemma length_cagrad_weights G s ne c w_opt : length w_opt = length G ->
  length (cagrad_weights RN G s ne c w_opt) = length G.
Proof.
  intros Hw. unfold cagrad_weights. cbv zeta.
  match goal with |- context [if ?b then _ else _] => destruct b end.
  - rewrite length_vadd; rewrite ?length_vscale, length_mean; congruence.
  - apply length_vzero.
Qed.

Theorem cagrad_weights_equivariant m G p s ne c w_opt :
  length G = m -> wfmat m G -> is_perm m p -> length w_opt = m ->
  cagrad_weights RN (permM p G) s ne c (permR p w_opt) =
  permR p (cagrad_weights RN G s ne c w_opt).
Proof.
  intros HG Hwf Hp Hw. pose proof (is_perm_length m p Hp) as Hl.
  unfold cagrad_weights. cbv zeta.
  rewrite length_permM, Hl, HG.
  rewrite (normalized_gramian_perm m) by assumption.
  set (Gn := normalized_gramian RN G s ne).
  assert (HlGn : length Gn = m) by (unfold Gn; rewrite length_normalized_gramian; exact HG).
  assert (HwGn : wfmat m Gn) by (apply wfmat_normalized_gramian; assumption).
  change (quadform RN) with qf.
  rewrite (qf_permM_mean m), (qf_perm m) by assumption.
  destruct (nleb RN ne (nsqrt RN (qf Gn w_opt))).
  - rewrite permR_vadd by (rewrite length_vscale, length_mean; congruence).
    rewrite permR_vscale, (permR_mean m p Hp). reflexivity.
  - rewrite permR_vzero, Hl. reflexivity.
Qed.

(* C10 for CAGrad: the solver's answer is permuted alongside *)
Theorem agg_cagrad_perm n J p s ne c w_opt : wfmat n J ->
  is_perm (length J) p -> length w_opt = length J ->
  agg_cagrad RN s ne c (permR p w_opt) (perm_rows p J) = agg_cagrad RN s ne c w_opt J.
Proof.
  intros HJ Hp Hw. unfold agg_cagrad.
  apply (gramian_form_perm n); auto.
  - rewrite length_cagrad_weights; rewrite length_gram; auto.
  - rewrite gram_perm_rows.
    apply (cagrad_weights_equivariant (length J)); auto using length_gram, wfmat_gram.
Qed.

Lemma cagrad_objective_perm m Gn p c w : length Gn = m -> wfmat m Gn -> is_perm m p ->
  length w = m ->
  dotR (permR p w) (mvR (permM p Gn) (mean_weights RN m)) +
    c * sqrt (quadform RN (permM p Gn) (mean_weights RN m)) * sqrt (quadform RN (permM p Gn) (permR p w))
  = dotR w (mvR Gn (mean_weights RN m)) +
    c * sqrt (quadform RN Gn (mean_weights RN m)) * sqrt (quadform RN Gn w).
Proof.
  intros HG Hwf Hp Hw. change (quadform RN) with qf.
  rewrite (qf_permM_mean m), (mv_permM_mean m), (qf_perm m) by assumption.
  rewrite dot_permR; [reflexivity | rewrite Hw; exact Hp | rewrite length_mv; congruence].
Qed.

Theorem cagrad_opt_perm m Gn p c w_opt : length Gn = m -> wfmat m Gn -> is_perm m p ->
  cagrad_opt Gn c w_opt -> cagrad_opt (permM p Gn) c (permR p w_opt).
Proof.
  intros HG Hwf Hp [Hsx Hmin]. cbv zeta in Hmin. rewrite HG in Hsx, Hmin.
  pose proof (is_perm_length m p Hp) as Hl.
  unfold cagrad_opt. cbv zeta. rewrite length_permM, Hl. split.
  - apply simplex_permR; assumption.
  - intros w' Hw'. destruct (simplex_perm_preimage m p w' Hp Hw') as (w & Hw & ->).
    rewrite (cagrad_objective_perm m Gn p c w HG Hwf Hp (proj1 Hw)).
    rewrite (cagrad_objective_perm m Gn p c w_opt HG Hwf Hp (proj1 Hsx)).
    apply Hmin. exact Hw.
Qed.

(* so does the first-order contract used by PublishedProofs.cagrad_c_ge_1_nonconflicting *)
Theorem cagrad_foc_perm m Gn p c w_opt : length Gn = m -> wfmat m Gn -> is_perm m p ->
  length w_opt = m ->
  cagrad_foc Gn c w_opt -> cagrad_foc (permM p Gn) c (permR p w_opt).
Proof.
  intros HG Hwf Hp Hw Hfoc. unfold cagrad_foc in *. cbv zeta in *. rewrite HG in Hfoc.
  pose proof (is_perm_length m p Hp) as Hl. rewrite length_permM, Hl.
  intros i Hi. specialize (Hfoc _ (is_perm_nth_lt m p i Hp Hi)). change (quadform RN) with qf in *.
  rewrite (qf_permM_mean m), (mv_permM_mean m), (qf_perm m), (mv_permM m) by assumption.
  rewrite dot_permR by (rewrite ?length_mv; try rewrite Hw; auto; congruence).
  rewrite !nth_permR by lia. exact Hfoc.
Qed.

Lemma bal_entry_perm lamR p i j : (i < length p)%nat -> (j < length p)%nat ->
  forall L V, bal_entry L (map (permR p) V) lamR i j =
              bal_entry L V lamR (nth i p 0%nat) (nth j p 0%nat).
Proof.
  intros Hi Hj L V. unfold bal_entry. f_equal. revert V.
  induction L as [|l L IH]; intros [|v V]; cbn [map List.combine]; try reflexivity.
  rewrite !vsum_cons, IH. f_equal. unfold vget. rn. rewrite !nth_permR by assumption. reflexivity.
Qed.

Theorem aligned_balance_perm lam Vt tol p : is_perm (length lam) p ->
  aligned_balance RN lam (map (permR p) Vt) tol = permM p (aligned_balance RN lam Vt tol).
Proof.
  intros Hp. set (m := length lam) in *. pose proof (is_perm_length m p Hp) as Hl.
  apply (mat_ext m).
  - apply length_aligned_balance.
  - rewrite length_permM. exact Hl.
  - apply wfmat_aligned_balance.
  - rewrite <- Hl. apply wfmat_permM.
  - intros i j Hi Hj. rewrite mget_permM by lia.
    pose proof (is_perm_nth_lt m p i Hp Hi) as Hpi. pose proof (is_perm_nth_lt m p j Hp Hj) as Hpj.
    rewrite !aligned_balance_table. cbv zeta. fold m.
    destruct (bal_rank lam tol =? 0)%nat.
    + unfold mget. rewrite !nth_map_seq, !nth_onehot by assumption.
      rewrite (is_perm_nth_eqb m p i j Hp Hi Hj). reflexivity.
    + rewrite !mget_table by assumption. rewrite firstn_map.
      apply bal_entry_perm; lia.
Qed.

Lemma mv_balance_perm lam Vt tol p w : is_perm (length lam) p -> length w = length lam ->
  mvR (aligned_balance RN lam (map (permR p) Vt) tol) (permR p w) =
  permR p (mvR (aligned_balance RN lam Vt tol) w).
Proof.
  intros Hp Hw. rewrite aligned_balance_perm by exact Hp.
  apply (mv_permM (length lam)); auto using length_aligned_balance, wfmat_aligned_balance.
Qed.

(* C10 for Aligned-MTL: eigenvectors and preference permuted alongside, same eigenvalues, same
   tolerance *)
Theorem agg_aligned_perm n J p lam Vt tol pref : wfmat n J ->
  is_perm (length J) p -> length lam = length J ->
  (forall w, pref = Some w -> length w = length J) ->
  agg_aligned RN lam (map (permR p) Vt) tol (option_map (permR p) pref) (perm_rows p J) =
  agg_aligned RN lam Vt tol pref J.
Proof.
  intros HJ Hp Hll Hpref. unfold agg_aligned.
  apply (pref_weighted_perm n J p pref (mvR (aligned_balance RN lam Vt tol))
           (mvR (aligned_balance RN lam (map (permR p) Vt) tol))); auto.
  intros u _ Hu. split.
  - rewrite length_mv, length_aligned_balance. exact Hll.
  - apply mv_balance_perm; [rewrite Hll; exact Hp | congruence].
Qed.

Lemma column_map_permR p i : (i < length p)%nat -> forall Vt,
  column RN (map (permR p) Vt) i = column RN Vt (nth i p 0%nat).
Proof.
  intros Hi. induction Vt as [|v Vt IH]; [reflexivity|]. cbn [map column]. rewrite IH. f_equal.
  rn. apply nth_permR. exact Hi.
Qed.

Theorem eigenpair_perm m G p l v : length G = m -> wfmat m G -> is_perm m p -> length v = m ->
  mvR G v = vscaleR l v -> mvR (permM p G) (permR p v) = vscaleR l (permR p v).
Proof.
  intros HG Hwf Hp Hv He. rewrite (mv_permM m) by assumption. rewrite He. apply permR_vscale.
Qed.

Theorem eigh_contract_perm m G p lam Vt :
  length G = m -> wfmat m G -> is_perm m p -> length Vt = m -> wfmat m Vt ->
  eigh_ok m G lam Vt -> eigh_ok m (permM p G) lam (map (permR p) Vt).
Proof.
  intros HG HwG Hp HlV HwV (Hrows & Hcols & Heig).
  pose proof (is_perm_length m p Hp) as Hl.
  assert (Hrow_len : forall k, (k < m)%nat -> length (nth k Vt []) = m).
  { intros k Hk. apply (wfmat_nth m); [exact HwV | lia]. }
  assert (Hnth : forall k, (k < m)%nat -> nth k (map (permR p) Vt) [] = permR p (nth k Vt [])).
  { intros k Hk. apply nth_map_lt. lia. }
  split; [|split].
  - intros k l Hk Hl'. rewrite !Hnth by assumption.
    rewrite dot_permR; [apply Hrows; assumption | rewrite Hrow_len by exact Hk; exact Hp |].
    rewrite !Hrow_len by assumption. reflexivity.
  - intros i j Hi Hj. rewrite !column_map_permR by lia.
    rewrite Hcols by (apply (is_perm_nth_lt m p); assumption).
    rewrite (is_perm_nth_eqb m p i j Hp Hi Hj). reflexivity.
  - intros k Hk. rewrite Hnth by exact Hk.
    apply (eigenpair_perm m); auto.
Qed.

(* hence the published guarantee (B G B^T = lam_min I) holds for the permuted problem with the
   permuted oracle answer, from the contract on the ORIGINAL problem *)
Corollary aligned_rebalanced_rows_perm n J p lam Vt tol :
  let m := length J in
  forall (HJ : wfmat n J) (Hne : J <> []) (Hp : is_perm m p)
         (Hll : length lam = m) (HlV : length Vt = m) (HwV : wfmat m Vt)
         (Htol : 0 <= tol) (Hfull : forall l, In l lam -> tol < l)
         (Hrows : forall k l, (k < m)%nat -> (l < m)%nat ->
                    dotR (nth k Vt []) (nth l Vt []) = if (k =? l)%nat then 1 else 0)
         (Hcols : forall i j, (i < m)%nat -> (j < m)%nat ->
                    dotR (column RN Vt i) (column RN Vt j) = if (i =? j)%nat then 1 else 0)
         (Heig : forall k, (k < m)%nat ->
                    mvR (gramR J) (nth k Vt []) = vscaleR (nth k lam 0) (nth k Vt [])),
  let B' := aligned_balance RN lam (map (permR p) Vt) tol in
  let Ghat' := mmulR n B' (perm_rows p J) in
  B' = permM p (aligned_balance RN lam Vt tol) /\
  length Ghat' = m /\
  forall i j, (i < m)%nat -> (j < m)%nat ->
    dotR (nth i Ghat' []) (nth j Ghat' []) = if (i =? j)%nat then last lam 0 else 0.
Proof.
  intros m HJ Hne Hp Hll HlV HwV Htol Hfull Hrows Hcols Heig B' Ghat'.
  pose proof (is_perm_length m p Hp) as Hl.
  destruct (eigh_contract_perm m (gramR J) p lam Vt (length_gram J) (wfmat_gram J) Hp HlV HwV
              (conj Hrows (conj Hcols Heig))) as (Hrows' & Hcols' & Heig').
  rewrite <- gram_perm_rows in Heig'.
  assert (HlJ' : length (perm_rows p J) = m) by (rewrite length_perm_rows; exact Hl).
  assert (HJ' : wfmat n (perm_rows p J)).
  { apply wfmat_perm_rows; [exact HJ | intros i; apply (is_perm_in m p i Hp)]. }
  pose proof (nonnil_same_length _ J HlJ' Hne) as Hne'.
  assert (HwV' : wfmat m (map (permR p) Vt)).
  { apply wfmat_map. intros v _. rewrite length_permR. exact Hl. }
  split; [apply aligned_balance_perm; rewrite Hll; exact Hp|].
  pose proof (aligned_rebalanced_rows n (perm_rows p J) lam (map (permR p) Vt) tol) as H.
  cbv zeta in H. rewrite HlJ' in H.
  destruct (H HJ' Hne' Hll (eq_trans (map_length _ _) HlV) HwV' Htol Hfull Hrows' Hcols' Heig') as (H1 & _ & H3).
  split; [exact H1 | exact H3].
Qed.

Definition vdiv (a b : list R) : list R := map (fun '(x, y) => x / y) (List.combine a b).

Lemma length_vdiv a b : length a = length b -> length (vdiv a b) = length a.
Proof. intros H. unfold vdiv. rewrite map_length, combine_length. lia. Qed.

Lemma nth_vdiv : forall a b j, length a = length b -> nth j (vdiv a b) 0 = nth j a 0 / nth j b 0.
Proof.
  induction a as [|x a IH]; intros [|y b] j H; cbn in H; try lia.
  - destruct j; cbn; unfold Rdiv; ring.
  - destruct j as [|j]; [reflexivity|]. unfold vdiv. cbn [List.combine map nth]. fold (vdiv a b).
    apply IH. lia.
Qed.

Lemma vmul_vdiv : forall w c, length w = length c -> allpos c -> vmul (vdiv w c) c = w.
Proof.
  induction w as [|x w IH]; intros [|y c] Hl Hc; cbn in Hl; try lia; [reflexivity|].
  apply Forall_cons_iff in Hc. destruct Hc as [Hy Hc].
  unfold vmul, vdiv. cbn [List.combine map]. fold (vdiv w c). fold (vmul (vdiv w c) c).
  rewrite IH by (auto; lia). f_equal. field. lra.
Qed.

Lemma feasible_vdiv u w : feasible u w -> forall c, allpos c ->
  feasible (vdiv u c) (vdiv w c).
Proof.
  induction 1 as [|a b U W Hab HUW IH]; intros [|y c] Hc; try constructor.
  - apply Forall_cons_iff in Hc. destruct Hc as [Hy Hc].
    unfold Rdiv. apply Rmult_le_compat_r; [|exact Hab]. left. apply Rinv_0_lt_compat. exact Hy.
  - apply IH. apply Forall_cons_iff in Hc. exact (proj2 Hc).
Qed.

Lemma feasible_vmul_mono a b : feasible a b -> forall c, allpos c ->
  feasible (vmul a c) (vmul b c).
Proof.
  induction 1 as [|x y A B Hxy HAB IH]; intros [|z c] Hc; try constructor.
  - apply Forall_cons_iff in Hc. apply Rmult_le_compat_r; [exact (Rlt_le _ _ (proj1 Hc)) | exact Hxy].
  - apply IH. apply Forall_cons_iff in Hc. exact (proj2 Hc).
Qed.

Lemma vm_rscale n w c J : length w = length J -> length c = length J ->
  vmR n w (rscale c J) = vmR n (vmul w c) J.
Proof. rewrite rscale_scale_rows. apply vm_scale_rows. Qed.

Lemma qf_gram_rscale n J c z : wfmat n J -> length c = length J -> length z = length J ->
  qf (gramR (rscale c J)) z = qf (gramR J) (vmul z c).
Proof.
  intros HJ Hc Hz.
  rewrite (qf_gram n (rscale c J)) by (try apply wfmat_rscale; auto; rewrite length_rscale; auto).
  rewrite (qf_gram n J) by (auto; rewrite length_vmul; congruence).
  rewrite vm_rscale by assumption. reflexivity.
Qed.

(* the substitution z = w ./ c is a bijection between the minimisers for (J, u) and those for
   (diag(c) J, u ./ c) *)
Lemma is_min_rscale_iff n J c u : wfmat n J -> length c = length J -> allpos c ->
  length u = length J ->
  (forall w, is_min (length J) (gramR J) u w ->
             is_min (length J) (gramR (rscale c J)) (vdiv u c) (vdiv w c)) /\
  (forall z, is_min (length J) (gramR (rscale c J)) (vdiv u c) z ->
             is_min (length J) (gramR J) u (vmul z c)).
Proof.
  intros HJ Hc Hpos Hu.
  apply (is_min_subst _ _ _ _ _ (fun v => vmul v c) (fun x => vdiv x c) 1); try lra.
  - intros v Hv. rewrite length_vmul; congruence.
  - intros x Hx. rewrite length_vdiv; congruence.
  - intros x Hx. apply vmul_vdiv; [congruence | exact Hpos].
  - intros v Hv. rewrite Rmult_1_l. apply (qf_gram_rscale n); assumption.
  - intros v _ Hfv. rewrite <- (vmul_vdiv u c) by (congruence || exact Hpos).
    apply feasible_vmul_mono; assumption.
  - intros x _ Hfx. apply feasible_vdiv; assumption.
Qed.

Theorem is_min_rscale n J c u w : wfmat n J -> length c = length J -> allpos c ->
  is_min (length J) (gramR J) u w ->
  is_min (length J) (gramR (rscale c J)) (vdiv u c) (vdiv w c).
Proof.
  intros HJ Hc Hpos Hmin. pose proof Hmin as (Hw & Hf & _).
  assert (Hu : length u = length J) by (rewrite (feasible_length _ _ Hf); exact Hw).
  exact (proj1 (is_min_rscale_iff n J c u HJ Hc Hpos Hu) w Hmin).
Qed.

Theorem is_min_rscale_conv n J c u z : wfmat n J -> length c = length J -> allpos c ->
  length u = length J ->
  is_min (length J) (gramR (rscale c J)) (vdiv u c) z ->
  is_min (length J) (gramR J) u (vmul z c).
Proof. intros HJ Hc Hpos Hu. exact (proj2 (is_min_rscale_iff n J c u HJ Hc Hpos Hu) z). Qed.

Theorem is_min_pos_homog m M k u w : 0 < k -> is_min m M u w ->
  is_min m M (vscaleR k u) (vscaleR k w).
Proof.
  intros Hk. assert (Hk' : 0 <= 1 / k) by (apply Rlt_le, Rdiv_lt_0_compat; lra).
  assert (E : 1 / k * k = 1) by (field; lra).
  apply (is_min_subst m M M u _ (vscaleR (1 / k)) (vscaleR k) (k * k)).
  - apply Rmult_lt_0_compat; exact Hk.
  - intros v Hv. rewrite length_vscale. exact Hv.
  - intros x Hx. rewrite length_vscale. exact Hx.
  - intros x _. apply vscale_vscale_inv. exact E.
  - intros v _. rewrite <- qf_vscale, vscale_vscale_inv by (rewrite Rmult_comm; exact E). reflexivity.
  - intros v _ Hfv. rewrite <- (vscale_vscale_inv (1 / k) k u E). apply feasible_vscale; assumption.
  - intros x _. apply feasible_vscale. lra.
Qed.

Lemma vdiv_onehot m i t c : length c = m ->
  vdiv (onehotR m i t) c = onehotR m i (t / nth i c 0).
Proof.
  intros Hc. apply (nth_ext _ _ 0 0).
  - rewrite length_vdiv; rewrite !length_onehot; auto.
  - intros j Hj. rewrite length_vdiv, length_onehot in Hj by (rewrite length_onehot; auto).
    rewrite nth_vdiv by (rewrite length_onehot; auto). rewrite !nth_onehot by exact Hj.
    destruct (Nat.eqb_spec i j) as [E|E]; [subst j; reflexivity | unfold Rdiv; ring].
Qed.

(* UPGrad's i-th problem.  If w minimises for (J, t e_i) then  w'_k = w_k c_i / c_k  minimises
   for (diag(c) J, t e_i), and the projected row is multiplied by c_i. *)
Theorem is_min_onehot_rscale n J c i t w : wfmat n J -> length c = length J -> allpos c ->
  (i < length J)%nat ->
  is_min (length J) (gramR J) (onehotR (length J) i t) w ->
  let w' := vscaleR (nth i c 0) (vdiv w c) in
  is_min (length J) (gramR (rscale c J)) (onehotR (length J) i t) w' /\
  vmR n w' (rscale c J) = vscaleR (nth i c 0) (vmR n w J).
Proof.
  intros HJ Hc Hpos Hi Hmin w'.
  assert (Hci : 0 < nth i c 0) by (apply allpos_nth; [exact Hpos | lia]).
  pose proof Hmin as (Hw & _ & _).
  split.
  - pose proof (is_min_rscale n J c _ w HJ Hc Hpos Hmin) as H1.
    rewrite vdiv_onehot in H1 by exact Hc.
    pose proof (is_min_pos_homog _ _ (nth i c 0) _ _ Hci H1) as H2.
    rewrite vscale_onehot in H2.
    replace (nth i c 0 * (t / nth i c 0)) with t in H2 by (field; lra). exact H2.
  - unfold w'. rewrite vm_vscale. f_equal.
    rewrite vm_rscale by (auto; rewrite length_vdiv; congruence).
    rewrite vmul_vdiv by (auto; congruence). reflexivity.
Qed.

(* the combination w . J is the same for ALL minimisers of the (only semi-definite) form *)
Theorem min_proj_unique n J u w1 w2 : wfmat n J ->
  is_min (length J) (gramR J) u w1 -> is_min (length J) (gramR J) u w2 ->
  vmR n w1 J = vmR n w2 J.
Proof.
  intros HJ H1 H2. pose proof H1 as (Hl1 & _). pose proof H2 as (Hl2 & _).
  pose proof (is_min_diff_qf _ _ u w1 w2 (symm_gram n J HJ) H1 H2) as Z.
  assert (Hd : length (vsubR w2 w1) = length J) by (rewrite length_vsub; congruence).
  rewrite (qf_gram n) in Z by assumption.
  apply (fun H => Rle_antisym _ _ H (dot_self_nonneg _)), dot_self_zero in Z. rewrite length_vm in Z by exact HJ.
  rewrite <- (vadd_vsub w1 w2) by congruence.
  rewrite vm_vadd, Z by congruence.
  symmetry. apply vadd_vzero_r. apply length_vm. exact HJ.
Qed.

Lemma vm_vsum_rows n m J W : wfmat n J -> wfmat m W ->
  vmR n (vsum_rows RN m W) J = vsum_rows RN n (map (fun w => vmR n w J) W).
Proof.
  intros HJ. apply (vsum_rows_additive (fun w => vmR n w J)); [apply vm_vzero_any; exact HJ|].
  intros a b Ha Hb. apply vm_vadd. congruence.
Qed.

Lemma vm_as_vsum_rows n : forall c P, vmR n c P = vsum_rows RN n (rscale c P).
Proof.
  induction c as [|x c IH]; intros [|r P]; try reflexivity.
  unfold rscale. cbn [vm List.combine map vsum_rows]. fold (rscale c P). rewrite IH. reflexivity.
Qed.

(* the matrix of projected rows  pi_i(J) = W_i . J *)
Definition proj_rows (n : nat) (J : list (list R)) (W : nat -> list R) : list (list R) :=
  map (fun i => vmR n (W i) J) (seq 0 (length J)).

Lemma wfmat_proj_rows n J W : wfmat n J -> wfmat n (proj_rows n J W).
Proof. intros HJ. apply wfmat_map. intros i _. apply length_vm. exact HJ. Qed.

Lemma length_proj_rows n J W : length (proj_rows n J W) = length J.
Proof. unfold proj_rows. rewrite map_length. apply seq_length. Qed.

Lemma wfmat_minimisers m M (t : nat -> R) (W : nat -> list R) :
  (forall i, (i < m)%nat -> is_min m M (onehotR m i (t i)) (W i)) -> wfmat m (map W (seq 0 m)).
Proof. intros HW. apply wfmat_map. intros i Hi. apply in_seq in Hi. apply (HW i). lia. Qed.

(* UPGrad without regularisation on diag(c) J, for ANY choice of minimisers on both sides:
   the output is  sum_i c_i pi_i(J) = c . Pi(J) *)
Theorem upgrad_unreg_rscale_core n J c (t : list R) (W W' : nat -> list R) :
  let m := length J in
  wfmat n J -> length c = m -> allpos c ->
  (forall i, (i < m)%nat -> is_min m (gramR J) (onehotR m i (vget RN t i)) (W i)) ->
  (forall i, (i < m)%nat ->
     is_min m (gramR (rscale c J)) (onehotR m i (vget RN t i)) (W' i)) ->
  vmR n (vsum_rows RN m (map W' (seq 0 m))) (rscale c J) = vmR n c (proj_rows n J W).
Proof.
  intros m HJ Hc Hpos HW HW'.
  assert (HJ' : wfmat n (rscale c J)) by (apply wfmat_rscale; exact HJ).
  assert (HlJ' : length (rscale c J) = m) by (apply length_rscale; exact Hc).
  rewrite (vm_vsum_rows n m) by (auto; exact (wfmat_minimisers m _ (vget RN t) W' HW')).
  rewrite map_map, vm_as_vsum_rows. f_equal.
  apply (nth_ext _ _ [] []).
  - rewrite map_length, seq_length, length_rscale; rewrite length_proj_rows; auto.
  - intros i Hi. rewrite map_length, seq_length in Hi.
    rewrite nth_map_seq by exact Hi.
    rewrite nth_rscale by (rewrite length_proj_rows; exact Hc).
    unfold proj_rows. fold m. rewrite nth_map_seq by exact Hi.
    destruct (is_min_onehot_rscale n J c i (vget RN t i) (W i) HJ Hc Hpos Hi (HW i Hi))
      as (Hmin & <-).
    apply (min_proj_unique n (rscale c J) (onehotR m i (vget RN t i))); [exact HJ' | |];
      rewrite HlJ'; [apply HW'; exact Hi | exact Hmin].
Qed.

Corollary upgrad_unreg_rscale_core_linear n J a b c1 c2 (t : list R) (W W1 W2 W12 : nat -> list R) :
  let m := length J in
  let c12 := vaddR (vscaleR a c1) (vscaleR b c2) in
  wfmat n J -> length c1 = m -> length c2 = m -> allpos c1 -> allpos c2 -> 0 < a -> 0 < b ->
  (forall i, (i < m)%nat -> is_min m (gramR J) (onehotR m i (vget RN t i)) (W i)) ->
  (forall i, (i < m)%nat -> is_min m (gramR (rscale c1 J)) (onehotR m i (vget RN t i)) (W1 i)) ->
  (forall i, (i < m)%nat -> is_min m (gramR (rscale c2 J)) (onehotR m i (vget RN t i)) (W2 i)) ->
  (forall i, (i < m)%nat -> is_min m (gramR (rscale c12 J)) (onehotR m i (vget RN t i)) (W12 i)) ->
  vmR n (vsum_rows RN m (map W12 (seq 0 m))) (rscale c12 J) =
  vaddR (vscaleR a (vmR n (vsum_rows RN m (map W1 (seq 0 m))) (rscale c1 J)))
        (vscaleR b (vmR n (vsum_rows RN m (map W2 (seq 0 m))) (rscale c2 J))).
Proof.
  intros m c12 HJ H1 H2 P1 P2 Ha Hb HW HW1 HW2 HW12. subst m.
  assert (Hl12 : length c12 = length J) by (unfold c12; rewrite length_lincomb; congruence).
  assert (P12 : allpos c12) by (apply allpos_comb; assumption).
  rewrite (upgrad_unreg_rscale_core n J c12 t W W12) by assumption.
  rewrite (upgrad_unreg_rscale_core n J c1 t W W1) by assumption.
  rewrite (upgrad_unreg_rscale_core n J c2 t W W2) by assumption.
  apply vm_lincomb. congruence.
Qed.

(* contract of the QP oracle on the m one-hot problems of UPGrad, without regularisation;
   s is the sigma_max oracle for J (0 < s, not below norm_eps: the Gramian is normalised) *)
Definition qp_unreg_ok (qp : list (list R) -> list R -> list R) (J : list (list R)) (s ne : R)
           (u : list R) : Prop :=
  let m := length J in
  let M := reg_norm_gramian RN (gramR J) s ne 0 in
  0 < s /\ nltb RN s ne = false /\
  forall i, (i < m)%nat ->
    is_min m M (onehotR m i (vget RN u i)) (qp M (onehotR m i (vget RN u i))).

(* the oracle's answer for the i-th problem; its combination with J is the projected row pi_i(J) *)
Definition upgrad_W (qp : list (list R) -> list R -> list R) (J : list (list R)) (s ne : R)
           (u : list R) (i : nat) : list R :=
  qp (reg_norm_gramian RN (gramR J) s ne 0) (onehotR (length J) i (vget RN u i)).

Lemma qp_unreg_ok_min qp J s ne u : qp_unreg_ok qp J s ne u ->
  forall i, (i < length J)%nat ->
    is_min (length J) (gramR J) (onehotR (length J) i (vget RN u i)) (upgrad_W qp J s ne u i).
Proof.
  intros (Hs & Hne & Hq) i Hi. apply (is_min_unregularised J s ne); [exact Hs | exact Hne|].
  apply Hq. exact Hi.
Qed.

Lemma agg_upgrad_unfold n J qp pref s ne re u : wfmat n J -> J <> [] ->
  pref_weights pref (mean_weights RN (length J)) (length J) = Ok u ->
  agg_upgrad RN qp pref s ne re J =
  Ok (vmR n (vsum_rows RN (length J)
               (map (fun i => qp (reg_norm_gramian RN (gramR J) s ne re)
                                 (onehotR (length J) i (vget RN u i))) (seq 0 (length J)))) J).
Proof.
  intros HJ Hne Hpw. unfold agg_upgrad. rewrite Hpw. cbn [rbind]. f_equal.
  rewrite (combine_wf n) by assumption.
  unfold upgrad_weights. cbv zeta.
  rewrite (pref_weights_length pref _ _ u (length_mean _) Hpw). reflexivity.
Qed.

Theorem agg_upgrad_unreg_proj n J qp pref s ne u : wfmat n J -> J <> [] ->
  pref_weights pref (mean_weights RN (length J)) (length J) = Ok u ->
  qp_unreg_ok qp J s ne u ->
  agg_upgrad RN qp pref s ne 0 J = Ok (vsum_rows RN n (proj_rows n J (upgrad_W qp J s ne u))).
Proof.
  intros HJ Hne Hpw Hq. rewrite (agg_upgrad_unfold n) with (u := u) by assumption. f_equal.
  rewrite (vm_vsum_rows n (length J)); [unfold proj_rows; rewrite map_map; reflexivity | exact HJ |].
  exact (wfmat_minimisers _ _ (vget RN u) _ (qp_unreg_ok_min qp J s ne u Hq)).
Qed.

Theorem agg_upgrad_unreg_rscale n J c qp pref s s' ne u : wfmat n J -> J <> [] ->
  length c = length J -> allpos c ->
  pref_weights pref (mean_weights RN (length J)) (length J) = Ok u ->
  qp_unreg_ok qp J s ne u -> qp_unreg_ok qp (rscale c J) s' ne u ->
  agg_upgrad RN qp pref s' ne 0 (rscale c J) =
  Ok (vmR n c (proj_rows n J (upgrad_W qp J s ne u))).
Proof.
  intros HJ Hne Hc Hpos Hpw Hq Hq'.
  assert (HlJ' : length (rscale c J) = length J) by (apply length_rscale; exact Hc).
  rewrite (agg_upgrad_unfold n (rscale c J)) with (u := u);
    [| apply wfmat_rscale; exact HJ | apply rscale_nonempty; assumption | rewrite HlJ'; exact Hpw].
  f_equal. pose proof (qp_unreg_ok_min qp (rscale c J) s' ne u Hq') as Hm'.
  unfold upgrad_W in Hm'. rewrite HlJ' in *.
  apply (upgrad_unreg_rscale_core n J c u (upgrad_W qp J s ne u)
           (fun i => qp (reg_norm_gramian RN (gramR (rscale c J)) s' ne 0)
                        (onehotR (length J) i (vget RN u i)))); auto.
  apply (qp_unreg_ok_min qp J s ne u Hq).
Qed.

(* C09 for UPGrad, idealised reg_eps = 0: c |-> UPGrad(diag(c) J) is linear on positive
   vectors, whatever minimisers the (correct) QP oracle returns *)
Theorem agg_upgrad_unreg_linear_under_scaling n J qp pref s s1 s2 s12 ne a b c1 c2 u :
  wfmat n J -> J <> [] -> length c1 = length J -> length c2 = length J ->
  allpos c1 -> allpos c2 -> 0 < a -> 0 < b ->
  pref_weights pref (mean_weights RN (length J)) (length J) = Ok u ->
  let c12 := vaddR (vscaleR a c1) (vscaleR b c2) in
  qp_unreg_ok qp J s ne u ->
  qp_unreg_ok qp (rscale c1 J) s1 ne u -> qp_unreg_ok qp (rscale c2 J) s2 ne u ->
  qp_unreg_ok qp (rscale c12 J) s12 ne u ->
  exists x1 x2,
    agg_upgrad RN qp pref s1 ne 0 (rscale c1 J) = Ok x1 /\
    agg_upgrad RN qp pref s2 ne 0 (rscale c2 J) = Ok x2 /\
    agg_upgrad RN qp pref s12 ne 0 (rscale c12 J) = Ok (vaddR (vscaleR a x1) (vscaleR b x2)).
Proof.
  intros HJ Hne H1 H2 P1 P2 Ha Hb Hpw c12 Hq Hq1 Hq2 Hq12.
  assert (Hl12 : length c12 = length J) by (unfold c12; rewrite length_lincomb; congruence).
  assert (P12 : allpos c12) by (apply allpos_comb; assumption).
  set (P := proj_rows n J (upgrad_W qp J s ne u)).
  exists (vmR n c1 P), (vmR n c2 P).
  split; [apply (agg_upgrad_unreg_rscale n); assumption|].
  split; [apply (agg_upgrad_unreg_rscale n); assumption|].
  rewrite (agg_upgrad_unreg_rscale n J c12 qp pref s s12 ne u) by assumption. f_equal.
  apply vm_lincomb. congruence.
Qed.

(* without conflict between the rows each of UPGrad's problems, regularised or not, is solved by its own bound *)
Lemma no_conflict_min_onehot n J s ne re u i : wfmat n J -> 0 < s -> nltb RN s ne = false -> 0 <= re ->
  (forall r r', In r J -> In r' J -> 0 <= dotR r r') -> nonneg u ->
  let e := onehotR (length J) i (vget RN u i) in
  is_min (length J) (reg_norm_gramian RN (gramR J) s ne re) e e.
Proof.
  intros HJ Hs Hne Hre Hnc Hu e. apply (no_conflict_min n); auto.
  - apply length_onehot.
  - apply nonneg_onehot. unfold vget. rn. apply nonneg_nth. exact Hu.
Qed.

(* non-vacuity: in the no-conflict case the oracle  qp _ x = x  meets the contract on J and on
   every positively scaled diag(c) J *)
Lemma qp_unreg_ok_no_conflict n J s ne u : wfmat n J -> 0 < s -> nltb RN s ne = false ->
  (forall r r', In r J -> In r' J -> 0 <= dotR r r') -> nonneg u ->
  qp_unreg_ok (fun _ x => x) J s ne u.
Proof.
  intros HJ Hs Hne Hnc Hu. split; [exact Hs|]. split; [exact Hne|]. intros i _.
  exact (no_conflict_min_onehot n J s ne 0 u i HJ Hs Hne (Rle_refl 0) Hnc Hu).
Qed.

Lemma in_rscale c J r : allpos c -> In r (rscale c J) ->
  exists k r0, 0 < k /\ In r0 J /\ r = vscaleR k r0.
Proof.
  intros Hc Hr. unfold rscale in Hr. apply in_map_iff in Hr. destruct Hr as ([k r0] & <- & Hin).
  exists k, r0. split; [|split; [eapply in_combine_r; exact Hin | reflexivity]].
  unfold allpos in Hc. rewrite Forall_forall in Hc. apply Hc. eapply in_combine_l; exact Hin.
Qed.

Lemma no_conflict_rscale c J : allpos c -> (forall r r', In r J -> In r' J -> 0 <= dotR r r') ->
  forall r r', In r (rscale c J) -> In r' (rscale c J) -> 0 <= dotR r r'.
Proof.
  intros Hc Hnc r r' Hr Hr'.
  destruct (in_rscale c J r Hc Hr) as (k & r0 & Hk & Hin & ->).
  destruct (in_rscale c J r' Hc Hr') as (k' & r0' & Hk' & Hin' & ->).
  rewrite dot_vscale_l, dot_vscale_r. specialize (Hnc _ _ Hin Hin').
  apply Rmult_le_pos; [lra|]. apply Rmult_le_pos; [lra | exact Hnc].
Qed.

Lemma upgrad_unreg_hyps_satisfiable n J c s s' ne u : wfmat n J -> 0 < s -> nltb RN s ne = false ->
  0 < s' -> nltb RN s' ne = false -> allpos c ->
  (forall r r', In r J -> In r' J -> 0 <= dotR r r') -> nonneg u ->
  qp_unreg_ok (fun _ x => x) J s ne u /\ qp_unreg_ok (fun _ x => x) (rscale c J) s' ne u.
Proof.
  intros HJ Hs Hne Hs' Hne' Hc Hnc Hu. split; [apply (qp_unreg_ok_no_conflict n); assumption|].
  apply (qp_unreg_ok_no_conflict n); auto using wfmat_rscale.
  apply no_conflict_rscale; assumption.
Qed.

Print Assumptions cagrad_weights_equivariant.
Print Assumptions agg_cagrad_perm.
Print Assumptions cagrad_opt_perm.
Print Assumptions cagrad_foc_perm.
Print Assumptions aligned_balance_perm.
Print Assumptions agg_aligned_perm.
Print Assumptions eigenpair_perm.
Print Assumptions eigh_contract_perm.
Print Assumptions aligned_rebalanced_rows_perm.
Print Assumptions is_min_rscale.
Print Assumptions is_min_rscale_conv.
Print Assumptions is_min_pos_homog.
Print Assumptions is_min_onehot_rscale.
Print Assumptions min_proj_unique.
Print Assumptions upgrad_unreg_rscale_core.
Print Assumptions upgrad_unreg_rscale_core_linear.
Print Assumptions agg_upgrad_unreg_proj.
Print Assumptions agg_upgrad_unreg_rscale.
Print Assumptions agg_upgrad_unreg_linear_under_scaling.
Print Assumptions upgrad_unreg_hyps_satisfiable.
