(* C06Proofs.v — storage discipline of the .grad fields: an existing .grad is added to in place
   (same storage id), a missing one is created with a fresh, unshared storage; only the keys handed
   to Accumulate can change.  Holds for every transform term, successful or not, and for both
   entry points. *)
From Coq Require Import List Bool Arith.
From TJ Require Import Num Autojac.
From TJ.proofs Require Import AutojacBasics C20Proofs.
Import ListNotations.

Section C06.
Context {T : Type} (N : Num T) (P : prog T) (A : list (list T) -> res (list T)).

Definition store_wf (s : @store T) : Prop := forall t g, sget s t = Some g -> g_sid g < s_next s.

(* s' extends s: an existing .grad keeps its storage (it was added to in place), a .grad that did
   not exist gets a storage that is fresh w.r.t. s and shared with no other tensor's .grad in s' *)
Definition extends (s s' : @store T) : Prop :=
  s_next s <= s_next s' /\
  (forall t g, sget s t = Some g -> exists g', sget s' t = Some g' /\ g_sid g' = g_sid g) /\
  (forall t g', sget s t = None -> sget s' t = Some g' ->
     s_next s <= g_sid g' /\
     forall t' g'', t' <> t -> sget s' t' = Some g'' -> g_sid g'' <> g_sid g').

Lemma extends_refl : forall s, extends s s.
Proof.
  intros s. unfold extends. split; [apply Nat.le_refl|]. split.
  - intros t g H. exists g. split; [exact H | reflexivity].
  - intros t g' Hn Hs. rewrite Hn in Hs. discriminate Hs.
Qed.

Lemma extends_trans : forall s1 s2 s3,
  store_wf s2 -> extends s1 s2 -> extends s2 s3 -> extends s1 s3.
Proof.
  intros s1 s2 s3 Hwf [Hn12 [Hk12 Hf12]] [Hn23 [Hk23 Hf23]].
  split; [exact (Nat.le_trans _ _ _ Hn12 Hn23)|]. split.
  - intros t g Hg. destruct (Hk12 t g Hg) as [g2 [Hg2 He2]].
    destruct (Hk23 t g2 Hg2) as [g3 [Hg3 He3]]. exists g3. split; [exact Hg3 | exact (eq_trans He3 He2)].
  - intros t g3 Hn1 Hg3.
    destruct (sget s2 t) as [g2|] eqn:E2.
    + (* created on the way to s2 and kept since *)
      destruct (Hk23 t g2 E2) as [g3' [Hg3' He3]].
      rewrite Hg3 in Hg3'. injection Hg3' as <-. rewrite He3.
      destruct (Hf12 t g2 Hn1 E2) as [Hlo Huniq].
      split; [exact Hlo|].
      intros t' g'' Hne Hg''.
      destruct (sget s2 t') as [g2'|] eqn:E2'.
      * destruct (Hk23 t' g2' E2') as [g3'' [Hg3'' He3'']].
        rewrite Hg'' in Hg3''. injection Hg3'' as <-. rewrite He3''. exact (Huniq t' g2' Hne E2').
      * (* t' was created after s2, so above the counter of s2, which is above the storage of t *)
        destruct (Hf23 t' g'' E2' Hg'') as [Hlo' _].
        apply not_eq_sym, Nat.lt_neq. exact (Nat.lt_le_trans _ _ _ (Hwf t g2 E2) Hlo').
    + destruct (Hf23 t g3 E2 Hg3) as [Hlo Huniq].
      split; [exact (Nat.le_trans _ _ _ Hn12 Hlo) | exact Huniq].
Qed.

(* "wf is kept and the store is extended": the relation every store step is shown to respect *)
Definition good (s s' : @store T) : Prop := store_wf s -> store_wf s' /\ extends s s'.

Lemma good_refl : forall s, good s s.
Proof. intros s Hwf. split; [exact Hwf | apply extends_refl]. Qed.

Lemma good_trans : forall s1 s2 s3, good s1 s2 -> good s2 s3 -> good s1 s3.
Proof.
  intros s1 s2 s3 H12 H23 Hwf. destruct (H12 Hwf) as [Hwf2 He12]. destruct (H23 Hwf2) as [Hwf3 He23].
  split; [exact Hwf3|]. exact (extends_trans s1 s2 s3 Hwf2 He12 He23).
Qed.

Lemma accumulate_one_good : forall s kv, good s (accumulate_one N s kv).
Proof.
  intros s [k v] Hwf.
  pose proof (fun t (H : t <> k) => sget_accumulate_other N s (k, v) t H) as Ho.
  destruct (accumulate_one_at N s k v) as (gk & Hk & Hn & Hat).
  generalize dependent (accumulate_one N s (k, v)). intros s' Ho Hk Hn Hat.
  split.
  - intros t g' Hg'. destruct (Nat.eq_dec t k) as [->|Hne].
    + rewrite Hk in Hg'. injection Hg' as <-.
      destruct (sget s k) as [g|] eqn:E.
      * rewrite Hat. exact (Nat.lt_le_trans _ _ _ (Hwf k g E) Hn).
      * destruct Hat as [-> Hlt]. exact Hlt.
    + rewrite (Ho t Hne) in Hg'. exact (Nat.lt_le_trans _ _ _ (Hwf t g' Hg') Hn).
  - split; [exact Hn|]. split.
    + intros t g0 Hg0. destruct (Nat.eq_dec t k) as [->|Hne].
      * exists gk. split; [exact Hk|]. rewrite Hg0 in Hat. exact Hat.
      * exists g0. split; [rewrite (Ho t Hne); exact Hg0 | reflexivity].
    + intros t g' Hnone Hg'. destruct (Nat.eq_dec t k) as [->|Hne].
      * rewrite Hk in Hg'. injection Hg' as <-. rewrite Hnone in Hat. destruct Hat as [Hsid _].
        rewrite Hsid. split; [apply Nat.le_refl|].
        intros t' g'' Hne' Hg''. rewrite (Ho t' Hne') in Hg''.
        apply Nat.lt_neq. exact (Hwf t' g'' Hg'').
      * rewrite (Ho t Hne), Hnone in Hg'. discriminate Hg'.
Qed.

Lemma fold_acc_good : forall items s, good s (fold_left (accumulate_one N) items s).
Proof.
  intros items. induction items as [|kv items IH]; intros s; cbn [fold_left].
  - apply good_refl.
  - exact (good_trans _ _ _ (accumulate_one_good s kv) (IH _)).
Qed.

Lemma good_same : forall s s' : @store T, s_grads s' = s_grads s -> s_next s' = s_next s -> good s s'.
Proof.
  intros s s' Hg Hn Hwf.
  assert (Hs : forall t, sget s' t = sget s t) by (intros t; apply sget_grads_eq; exact Hg).
  split.
  - intros t g H. rewrite Hn. rewrite Hs in H. exact (Hwf t g H).
  - unfold extends. rewrite Hn. split; [apply Nat.le_refl|]. split.
    + intros t g H. exists g. split; [rewrite Hs; exact H | reflexivity].
    + intros t g' H0 H1. rewrite Hs, H0 in H1. discriminate H1.
Qed.

Lemma sweep_good : forall s outs ins rows b rt r s',
  ag_sweep P s outs ins rows b rt = (r, s') -> good s s'.
Proof.
  intros s outs ins rows b rt r s' H.
  exact (good_same s s' (ag_sweep_grads P _ _ _ _ _ _ _ _ H) (ag_sweep_next P _ _ _ _ _ _ _ _ H)).
Qed.

Lemma run_extends : forall t s d r s',
  store_wf s -> run N P A t s d = (r, s') -> store_wf s' /\ extends s s'.
Proof.
  intros t s d r s' Hwf Hrun. revert Hwf.
  apply (run_R N P A good (fun _ => True)) with (t := t) (d := d) (r := r); [..| exact I | exact Hrun].
  - exact good_refl.
  - exact good_trans.
  - intros ts _. apply Forall_forall. intros _ _. exact I.
  - intros ts _. apply Forall_forall. intros _ _. exact I.
  - intros o i _. split; exact I.
  - intros ks s0 d0 _ _. apply fold_acc_good.
  - intros outs ins retain s0 r0 s0' _. apply sweep_good.
  - intros outs ins k retain rows b rt s0 r0 s0' _ _. apply sweep_good.
Qed.

Lemma backward_extends : forall tensors ord k retain s r s',
  store_wf s -> backward_model N P A tensors ord k retain s = (r, s') -> store_wf s' /\ extends s s'.
Proof.
  intros tensors ord k retain s r s' Hwf H.
  exact (backward_entry N P A good _ _ _ _ _ _ _ (good_refl s)
           (fun Hrun Hs => run_extends _ _ _ _ _ Hs Hrun) H Hwf).
Qed.

Lemma mtl_extends : forall losses features tasks shared k retain s r s',
  store_wf s -> mtl_backward_model N P A losses features tasks shared k retain s = (r, s') ->
  store_wf s' /\ extends s s'.
Proof.
  intros losses features tasks shared k retain s r s' Hwf H.
  exact (mtl_entry N P A good _ _ _ _ _ _ _ _ _ (good_refl s)
           (fun Hrun Hs => run_extends _ _ _ _ _ Hs Hrun) H Hwf).
Qed.

Fixpoint acc_keys (t : tr) : list tid :=
  match t with
  | TAccumulate ks => ks
  | TStack ts | TConj ts => flat_map acc_keys ts
  | TComp o i => acc_keys o ++ acc_keys i
  | _ => []
  end.

Lemma acc_keys_backward : forall tensors ord k retain,
  acc_keys (backward_transform tensors ord k retain) = ord.
Proof.
  intros tensors ord k retain. unfold backward_transform, TAggregate. cbn [acc_keys app].
  apply app_nil_r.
Qed.

Lemma acc_keys_task : forall features ps l retain,
  acc_keys (task_transform features ps l retain) = ps.
Proof.
  intros features ps l retain. unfold task_transform. cbn [acc_keys flat_map app].
  rewrite !app_nil_r. reflexivity.
Qed.

Lemma acc_keys_mtl : forall losses features tasks shared k retain x,
  In x (acc_keys (mtl_transform losses features tasks shared k retain)) ->
  In x (shared ++ concat tasks).
Proof.
  intros losses features tasks shared k retain x H.
  unfold mtl_transform, TAggregate in H. cbn [acc_keys app] in H.
  apply in_app_iff in H. apply in_app_iff. destruct H as [H|H]; [left; exact H | right].
  apply in_flat_map in H. destruct H as [t [Ht Hx]].
  apply in_map_iff in Ht. destruct Ht as [[ps l] [Heq Hin]]. subst t. cbn [fst snd] in Hx.
  rewrite acc_keys_task in Hx.
  apply in_concat. exists ps. split; [eapply in_combine_l; exact Hin | exact Hx].
Qed.

Lemma acc_keys_members : forall x ts,
  ~ In x (flat_map acc_keys ts) -> Forall (fun t => ~ In x (acc_keys t)) ts.
Proof.
  intros x ts H. apply Forall_forall. intros t Ht Hx. apply H, in_flat_map. exists t.
  exact (conj Ht Hx).
Qed.

(* the key check has made the dictionary's keys those of the term *)
Lemma accumulate_frame : forall x ks s (d : @tdict T),
  ~ In x ks -> set_eqb (dkeys d) (dedup ks) = true ->
  sget (fold_left (accumulate_one N) (ditems d) s) x = sget s x.
Proof.
  intros x ks s d Hx Hkeys. apply fold_accumulate_other. intros Hin. apply Hx.
  apply (dedup_In x ks). apply (proj1 (set_eqb_spec _ _) Hkeys x). exact Hin.
Qed.

Lemma sweep_frame : forall x s outs ins rows b rt r s',
  ag_sweep P s outs ins rows b rt = (r, s') -> sget s' x = sget s x.
Proof.
  intros x s outs ins rows b rt r s' H. exact (sget_grads_eq s' s x (ag_sweep_grads P _ _ _ _ _ _ _ _ H)).
Qed.

Lemma run_frame : forall t s d r s' k,
  ~ In k (acc_keys t) -> run N P A t s d = (r, s') -> sget s' k = sget s k.
Proof.
  intros t s d r s' x.
  apply (run_R N P A (fun s1 s2 => sget s2 x = sget s1 x) (fun t => ~ In x (acc_keys t))).
  - reflexivity.
  - intros s1 s2 s3 E1 E2. rewrite E2. exact E1.
  - apply acc_keys_members.
  - apply acc_keys_members.
  - intros o i H. split; intros Hx; apply H, in_or_app; [left | right]; exact Hx.
  - apply accumulate_frame.
  - intros outs ins retain s0 r0 s0' _. apply sweep_frame.
  - intros outs ins k retain rows b rt s0 r0 s0' _ _. apply sweep_frame.
Qed.

Lemma backward_frame : forall tensors ord k retain s r s' t,
  ~ In t ord -> backward_model N P A tensors ord k retain s = (r, s') -> sget s' t = sget s t.
Proof.
  intros tensors ord k retain s r s' x Hx.
  apply (backward_entry N P A (fun s1 s2 => sget s2 x = sget s1 x)); [reflexivity|].
  apply run_frame. rewrite acc_keys_backward. exact Hx.
Qed.

Lemma mtl_frame : forall losses features tasks shared k retain s r s' t,
  ~ In t (shared ++ concat tasks) ->
  mtl_backward_model N P A losses features tasks shared k retain s = (r, s') -> sget s' t = sget s t.
Proof.
  intros losses features tasks shared k retain s r s' x Hx.
  apply (mtl_entry N P A (fun s1 s2 => sget s2 x = sget s1 x)); [reflexivity|].
  apply run_frame. intros Hin. exact (Hx (acc_keys_mtl _ _ _ _ _ _ x Hin)).
Qed.
End C06.

Print Assumptions run_extends.
Print Assumptions backward_extends.
Print Assumptions mtl_extends.
Print Assumptions run_frame.
Print Assumptions mtl_frame.
Print Assumptions extends_trans.
