(* [run] as a whole: its unfolding equation, the inversion of one run of each transform, the
   entry points as "argument checks, then the pipeline on the empty dictionary", and one induction
   for every fact about the store (run_R).
   Then property C20: only Accumulate writes a .grad field, so a failing backward leaves every
   .grad untouched; the argument checks, as one boolean, reject with ValueError and an unchanged
   store, and every kind of invalid argument makes that boolean false. *)
From Coq Require Import List Bool Arith.
From TJ Require Import Num Linalg Chunk Autojac.
From TJ.proofs Require Import ChunkProofs AutojacBasics EntrySpec.
Import ListNotations.

Section Run.
Context {T : Type} (N : Num T) (P : prog T) (A : list (list T) -> res (list T)).

(* the inner loop of Stack / Conjunction: the members run in order on the same dictionary,
   each on the store the previous one left *)
Definition run_list (d : tdict) :=
  fix go (ts : list tr) (s : store) : res (list tdict) * store :=
    match ts with
    | [] => (Ok [], s)
    | t' :: ts' =>
        match run N P A t' s d with
        | (Err e, s') => (Err e, s')
        | (Ok d', s') =>
            match go ts' s' with
            | (Err e, s'') => (Err e, s'')
            | (Ok ds, s'') => (Ok (d' :: ds), s'')
            end
        end
    end.

Definition run_body (t : tr) (s : @store T) (d : @tdict T) : res tdict * store :=
  match t with
  | TInit vals => lift (init_compute N P vals) s
  | TDiag c => lift (diag_compute N P c d) s
  | TSelect keys _ => lift (select_compute P keys d) s
  | TStack ts =>
      match run_list d ts s with
      | (Err e, s') => (Err e, s')
      | (Ok ds, s') => (stack_dicts N P ds, s')
      end
  | TConj ts =>
      match run_list d ts s with
      | (Err e, s') => (Err e, s')
      | (Ok ds, s') => (union_dicts P ds, s')
      end
  | TComp o i =>
      match run N P A i s d with
      | (Err e, s') => (Err e, s')
      | (Ok d', s') => run N P A o s' d'
      end
  | TAccumulate _ => accumulate_compute N P s d
  | TGrad outs ins retain => grad_compute N P s outs ins retain d
  | TJac outs ins chunk retain => jac_compute N P s outs ins chunk retain d
  | TMatrixify _ => lift (matrixify_compute P d) s
  | TAggMat ord => lift (aggmat_compute P A ord d) s
  | TReshape _ => lift (reshape_compute P d) s
  end.

Lemma run_eq t s d :
  run N P A t s d =
  if negb (set_eqb (dkeys d) (required_keys t)) then (Err ValueError, s) else run_body t s d.
Proof. destruct t; reflexivity. Qed.

Lemma run_ok_body t s d d' s' :
  run N P A t s d = (Ok d', s') ->
  set_eqb (dkeys d) (required_keys t) = true /\ run_body t s d = (Ok d', s').
Proof.
  rewrite run_eq. destruct (set_eqb (dkeys d) (required_keys t)); cbn [negb]; intros H.
  - split; [reflexivity | exact H].
  - discriminate H.
Qed.

Lemma run_body_eq t s d :
  set_eqb (dkeys d) (required_keys t) = true -> run N P A t s d = run_body t s d.
Proof. intros H. rewrite run_eq, H. reflexivity. Qed.

Lemma run_comp_eq o i s d :
  run N P A (TComp o i) s d =
  if negb (set_eqb (dkeys d) (required_keys i)) then (Err ValueError, s) else
  match run N P A i s d with
  | (Err e, s') => (Err e, s')
  | (Ok d', s') => run N P A o s' d'
  end.
Proof. exact (run_eq (TComp o i) s d). Qed.

Lemma run_comp_ok o i s d d1 s1 :
  run N P A i s d = (Ok d1, s1) -> run N P A (TComp o i) s d = run N P A o s1 d1.
Proof. intros H. rewrite run_comp_eq, (run_keys_ok N P A _ _ _ _ _ H), H. reflexivity. Qed.

Lemma run_comp_fail o i s d e s1 :
  set_eqb (dkeys d) (required_keys i) = true ->
  run N P A i s d = (Err e, s1) -> run N P A (TComp o i) s d = (Err e, s1).
Proof. intros Hk H. rewrite run_comp_eq, Hk, H. reflexivity. Qed.

Lemma run_comp_inv o i s d d' s' :
  run N P A (TComp o i) s d = (Ok d', s') ->
  exists d1 s1, run N P A i s d = (Ok d1, s1) /\ run N P A o s1 d1 = (Ok d', s').
Proof.
  cbn [run]. destruct (negb _); [discriminate|].
  destruct (run N P A i s d) as [[d1|e] s1]; [|discriminate].
  intros H. exists d1, s1. split; [reflexivity | exact H].
Qed.

Lemma run_comp_err o i s d e s' :
  run N P A (TComp o i) s d = (Err e, s') ->
  (set_eqb (dkeys d) (required_keys i) = false /\ s' = s) \/
  run N P A i s d = (Err e, s') \/
  exists d1 s1, run N P A i s d = (Ok d1, s1) /\ run N P A o s1 d1 = (Err e, s').
Proof.
  cbn [run]. destruct (set_eqb _ _) eqn:E; cbn [negb].
  - destruct (run N P A i s d) as [[d1|e1] s1]; intros H.
    + right; right. exists d1, s1. split; [reflexivity | exact H].
    + right; left. exact H.
  - intros H; injection H as _ <-. left. split; reflexivity.
Qed.

Lemma run_init_inv vals s d d' s' :
  run N P A (TInit vals) s d = (Ok d', s') ->
  s' = s /\ d' = mkDict KGradients
                   (map (fun v => (v, plain (p_shape P v) (vones N (pnumel P v)))) (dedup vals)).
Proof.
  cbn [run]. destruct (negb _); [discriminate|]. unfold lift, init_compute.
  intros H; injection H as H <-. split; [reflexivity|]. exact (mk_dict_ok P _ _ _ H).
Qed.

Lemma run_select_inv keys req s d d' s' :
  run N P A (TSelect keys req) s d = (Ok d', s') ->
  s' = s /\ d' = mkDict (dk d) (map (fun k => (k, dget' d k)) (dedup keys)).
Proof.
  cbn [run]. destruct (negb _); [discriminate|]. unfold lift, select_compute.
  intros H; injection H as H <-. split; [reflexivity|]. exact (mk_dict_ok P _ _ _ H).
Qed.

Lemma run_diag_inv c s d d' s' :
  run N P A (TDiag c) s d = (Ok d', s') ->
  s' = s /\ c <> [] /\
  let flatv := concat (map (fun k => flat (dget' d k)) c) in
  let rows := map (fun r => split_by (map (pnumel P) c) (diag_row N flatv r)) (seq 0 (length flatv)) in
  d' = mkDict KJacobians
         (map (fun jk => (snd jk, mkTens true (p_shape P (snd jk))
                                    (map (fun pieces => nth (fst jk) pieces []) rows)))
              (combine (seq 0 (length c)) c)).
Proof.
  cbn [run]. destruct (negb _); [discriminate|]. unfold lift, diag_compute.
  destruct c as [|k0 c]; [discriminate|].
  intros H; injection H as H <-. split; [reflexivity|]. split; [discriminate|].
  exact (mk_dict_ok P _ _ _ H).
Qed.

(* Init hands Diagonalize a vector of ones: the tensors' Jacobian w.r.t. themselves is the diagonal
   matrix of ones, one row per scalar, cut into one column block per tensor *)
Lemma run_init_diag_inv tensors s d d1 s1 :
  NoDup tensors ->
  run N P A (TComp (TDiag tensors) (TInit tensors)) s d = (Ok d1, s1) ->
  let m := list_sum (map (pnumel P) tensors) in
  s1 = s /\ tensors <> [] /\
  d1 = mkDict KJacobians
         (map (fun jk => (snd jk, mkTens true (p_shape P (snd jk))
                 (map (fun pieces => nth (fst jk) pieces [])
                      (map (fun r => split_by (map (pnumel P) tensors) (diag_row N (vones N m) r))
                           (seq 0 m)))))
              (combine (seq 0 (length tensors)) tensors)).
Proof.
  intros Hnd H m. apply run_comp_inv in H. destruct H as (d0 & s0 & H0 & H1).
  apply run_init_inv in H0. destruct H0 as [-> ->]. rewrite (dedup_id _ Hnd) in H1.
  apply run_diag_inv in H1. destruct H1 as (-> & Hne & ->). split; [reflexivity|]. split; [exact Hne|].
  replace (concat (map (fun k => flat (dget' (mkDict KGradients
             (map (fun v => (v, plain (p_shape P v) (vones N (pnumel P v)))) tensors)) k)) tensors))
    with (vones N m).
  - unfold vones at 2. rewrite repeat_length. reflexivity.
  - unfold m. rewrite <- concat_ones. f_equal. apply map_ext_in. intros k Hk.
    rewrite (dget'_items (fun v => plain (p_shape P v) (vones N (pnumel P v))) _ _ k Hk).
    symmetry. apply flat_plain.
Qed.

Lemma run_matrixify_inv ks s d d' s' :
  run N P A (TMatrixify ks) s d = (Ok d', s') ->
  s' = s /\ d' = mkDict KJacobianMatrices
     (map (fun kv => (fst kv, mkTens true [numel (t_trail (snd kv))] (t_rows (snd kv)))) (ditems d)).
Proof.
  cbn [run]. destruct (negb _); [discriminate|]. unfold lift, matrixify_compute.
  intros H; injection H as H <-. split; [reflexivity|]. exact (mk_dict_ok P _ _ _ H).
Qed.

Lemma run_reshape_inv ks s d d' s' :
  run N P A (TReshape ks) s d = (Ok d', s') ->
  s' = s /\ d' = mkDict KGradients
     (map (fun kv => (fst kv, mkTens false (p_shape P (fst kv)) (t_rows (snd kv)))) (ditems d)).
Proof.
  cbn [run]. destruct (negb _); [discriminate|]. unfold lift, reshape_compute.
  intros H; injection H as H <-. split; [reflexivity|]. exact (mk_dict_ok P _ _ _ H).
Qed.

Lemma run_aggmat_inv ord s d d' s' :
  run N P A (TAggMat ord) s d = (Ok d', s') ->
  s' = s /\
  (ord = [] /\ d' = empty_dict \/
   ord <> [] /\ exists v,
     A (unite ord d) = Ok v /\
     let lens := map (fun k => hd 0 (t_trail (dget' d k))) ord in
     length v = fold_right Nat.add 0 lens /\
     d' = mkDict KGradientVectors
            (map (fun kp => (fst kp, mkTens false [length (snd kp)] [snd kp]))
                 (combine ord (split_by lens v)))).
Proof.
  cbn [run]. destruct (negb _); [discriminate|]. unfold lift, aggmat_compute.
  destruct ord as [|k0 ord].
  - intros H; injection H as <- <-. split; [reflexivity|]. left. split; reflexivity.
  - destruct (A (unite (k0 :: ord) d)) as [v|e] eqn:EA; [|discriminate].
    destruct (length v =? _) eqn:El; cbn [negb]; [|discriminate].
    intros H; injection H as H <-. split; [reflexivity|]. right. split; [discriminate|].
    exists v. split; [reflexivity|]. cbv zeta. split; [apply Nat.eqb_eq; exact El|].
    exact (mk_dict_ok P _ _ _ H).
Qed.

Lemma run_accumulate_inv ks s d d' s' :
  run N P A (TAccumulate ks) s d = (Ok d', s') ->
  expects_all P (dkeys d) = true /\ d' = empty_dict /\ s' = fold_left (accumulate_one N) (ditems d) s.
Proof.
  cbn [run]. destruct (negb _); [discriminate|]. unfold accumulate_compute.
  destruct (expects_all P (dkeys d)); [|discriminate].
  intros H; injection H as <- <-. repeat split.
Qed.

Lemma run_accumulate_err ks s d e s' :
  run N P A (TAccumulate ks) s d = (Err e, s') -> s' = s.
Proof.
  cbn [run]. destruct (negb _); [intros H; injection H as _ <-; reflexivity|]. unfold accumulate_compute.
  destruct (expects_all P (dkeys d)); [discriminate|]. intros H; injection H as _ <-; reflexivity.
Qed.

Lemma run_grad_inv outs ins retain s d d' s' :
  outs <> [] -> ins <> [] ->
  run N P A (TGrad outs ins retain) s d = (Ok d', s') ->
  ag_sweep P s outs ins 1 false retain = (Ok tt, s') /\
  d' = mkDict (dk d)
         (map (fun i => (i, plain (p_shape P i)
                 (materialize N P i
                    (ag_value N P outs (map (fun o => flat (dget' d o)) outs) i)))) ins).
Proof.
  intros Ho Hi. cbn [run]. destruct (negb _); [discriminate|]. unfold grad_compute.
  destruct ins as [|i0 ins]; [congruence|]. destruct outs as [|o0 outs]; [congruence|].
  destruct (ag_sweep P s (o0 :: outs) (i0 :: ins) 1 false retain) as [[[]|e] s1]; [|discriminate].
  intros H. injection H as H <-. split; [reflexivity|]. apply mk_dict_ok in H. exact H.
Qed.

Lemma run_grad_noins outs retain s d d' s' :
  run N P A (TGrad outs [] retain) s d = (Ok d', s') -> s' = s /\ d' = mkDict (dk d) [].
Proof.
  cbn [run]. destruct (negb _); [discriminate|]. unfold grad_compute.
  intros H. injection H as H <-. split; [reflexivity|]. apply mk_dict_ok in H. exact H.
Qed.

Lemma run_grad_noouts ins retain s d d' s' :
  ins <> [] -> run N P A (TGrad [] ins retain) s d = (Ok d', s') ->
  s' = s /\
  d' = mkDict (dk d) (map (fun i => (i, plain (p_shape P i) (vzero N (pnumel P i)))) ins).
Proof.
  intros Hi. cbn [run]. destruct (negb _); [discriminate|]. unfold grad_compute.
  destruct ins as [|i0 ins]; [congruence|].
  intros H. injection H as H <-. split; [reflexivity|]. apply mk_dict_ok in H. exact H.
Qed.

Lemma run_jac_inv outs ins k retain s d d' s' :
  outs <> [] -> ins <> [] ->
  run N P A (TJac outs ins k retain) s d = (Ok d', s') ->
  exists matrix,
    jac_chunks N P s outs ins d (chunk_plan (nrows (dget' d (hd O outs))) k retain)
      = (Ok matrix, s') /\
    d' = mkDict (dk d)
           (map (fun ji => (snd ji, mkTens true (p_shape P (snd ji))
                   (map (fun ps => nth (fst ji) ps [])
                        (map (split_by (map (pnumel P) ins)) matrix))))
                (combine (seq 0 (length ins)) ins)).
Proof.
  intros Ho Hi. cbn [run]. destruct (negb _); [discriminate|]. unfold jac_compute.
  destruct ins as [|i0 ins]; [congruence|]. destruct outs as [|o0 outs]; [congruence|].
  cbn [hd]. cbv zeta.
  destruct (max_chunk _ k =? 0)%nat; [discriminate|].
  destruct (jac_chunks N P s (o0 :: outs) (i0 :: ins) d _) as [[matrix|e] s1]; [|discriminate].
  intros H. injection H as H <-. exists matrix. split; [reflexivity|].
  apply mk_dict_ok in H. exact H.
Qed.

Lemma run_jac_noins outs k retain s d d' s' :
  run N P A (TJac outs [] k retain) s d = (Ok d', s') -> s' = s /\ d' = mkDict (dk d) [].
Proof.
  cbn [run]. destruct (negb _); [discriminate|]. unfold jac_compute.
  intros H. injection H as H <-. split; [reflexivity|]. apply mk_dict_ok in H. exact H.
Qed.

Lemma run_jac_noouts ins k retain s d d' s' :
  ins <> [] -> run N P A (TJac [] ins k retain) s d = (Ok d', s') ->
  s' = s /\ d' = mkDict (dk d) (map (fun i => (i, mkTens true (p_shape P i) [])) ins).
Proof.
  intros Hi. cbn [run]. destruct (negb _); [discriminate|]. unfold jac_compute.
  destruct ins as [|i0 ins]; [congruence|].
  intros H. injection H as H <-. split; [reflexivity|]. apply mk_dict_ok in H. exact H.
Qed.

Lemma jac_chunks_rows outs ins d plan : forall s matrix s',
  jac_chunks N P s outs ins d plan = (Ok matrix, s') ->
  matrix = run_plan (jac_row N P outs ins d) plan.
Proof.
  induction plan as [|c plan IH]; intros s matrix s' H; cbn [jac_chunks] in H.
  - injection H as <- _. reflexivity.
  - destruct (ag_sweep P s outs ins (c_len c) (c_batched c) (c_retain c)) as [[u|e] s1];
      [|discriminate H].
    destruct (jac_chunks N P s1 outs ins d plan) as [[rest|e] s2] eqn:Ej; [|discriminate H].
    injection H as <- _. rewrite (IH _ _ _ Ej). reflexivity.
Qed.

Lemma run_list_nil d s : run_list d [] s = (Ok [], s).
Proof. reflexivity. Qed.

Lemma run_list_cons : forall d t ts s,
  run_list d (t :: ts) s =
  match run N P A t s d with
  | (Err e, s') => (Err e, s')
  | (Ok d', s') =>
      match run_list d ts s' with
      | (Err e, s'') => (Err e, s'')
      | (Ok ds, s'') => (Ok (d' :: ds), s'')
      end
  end.
Proof. intros d t ts s. reflexivity. Qed.

Lemma run_list_ok_cons d t ts s ds s' :
  run_list d (t :: ts) s = (Ok ds, s') <->
  exists d1 s1 ds1, run N P A t s d = (Ok d1, s1) /\ run_list d ts s1 = (Ok ds1, s') /\ ds = d1 :: ds1.
Proof.
  split.
  - rewrite run_list_cons. destruct (run N P A t s d) as [[d1|e] s1]; [|discriminate].
    destruct (run_list d ts s1) as [[ds1|e] s2] eqn:E2; [|discriminate].
    intros H. injection H as <- <-. exists d1, s1, ds1. split; [reflexivity|]. split; [exact E2 | reflexivity].
  - intros (d1 & s1 & ds1 & E1 & E2 & ->). rewrite run_list_cons, E1, E2. reflexivity.
Qed.

Lemma run_list_app d l1 l2 s :
  run_list d (l1 ++ l2) s =
  match run_list d l1 s with
  | (Err e, s1) => (Err e, s1)
  | (Ok ds1, s1) =>
      match run_list d l2 s1 with
      | (Err e, s2) => (Err e, s2)
      | (Ok ds2, s2) => (Ok (ds1 ++ ds2), s2)
      end
  end.
Proof.
  revert s. induction l1 as [|t l1 IH]; intros s.
  - rewrite run_list_nil. cbn [app]. destruct (run_list d l2 s) as [[ds2|e] s2]; reflexivity.
  - cbn [app]. rewrite !run_list_cons. destruct (run N P A t s d) as [[d1|e] s1]; [|reflexivity].
    rewrite IH. destruct (run_list d l1 s1) as [[ds1|e] s2]; [|reflexivity].
    destruct (run_list d l2 s2) as [[ds2|e] s3]; reflexivity.
Qed.

Lemma run_list_Forall2 (Q : tr -> @tdict T -> Prop) d ts :
  Forall (fun t => forall s d' s', run N P A t s d = (Ok d', s') -> Q t d') ts ->
  forall s ds s', run_list d ts s = (Ok ds, s') -> Forall2 Q ts ds.
Proof.
  intros HF. induction HF as [|t ts Ht HF IH]; intros s ds s' H.
  - rewrite run_list_nil in H. injection H as <- _. constructor.
  - apply run_list_ok_cons in H. destruct H as (d1 & s1 & ds1 & H1 & H2 & ->).
    constructor; [exact (Ht _ _ _ H1) | exact (IH _ _ _ H2)].
Qed.

Lemma run_list_length d ts : forall s ds s', run_list d ts s = (Ok ds, s') -> length ds = length ts.
Proof.
  induction ts as [|t ts IH]; intros s ds s' H.
  - rewrite run_list_nil in H. injection H as <- _. reflexivity.
  - apply run_list_ok_cons in H. destruct H as (d1 & s1 & ds1 & _ & H2 & ->).
    cbn [length]. rewrite (IH _ _ _ H2). reflexivity.
Qed.

Lemma run_stack_eq : forall ts s d,
  run N P A (TStack ts) s d =
  if negb (set_eqb (dkeys d) (required_keys (TStack ts))) then (Err ValueError, s) else
  match run_list d ts s with
  | (Err e, s') => (Err e, s')
  | (Ok ds, s') => (stack_dicts N P ds, s')
  end.
Proof. intros ts s d. exact (run_eq (TStack ts) s d). Qed.

Lemma run_conj_eq : forall ts s d,
  run N P A (TConj ts) s d =
  if negb (set_eqb (dkeys d) (required_keys (TConj ts))) then (Err ValueError, s) else
  match run_list d ts s with
  | (Err e, s') => (Err e, s')
  | (Ok ds, s') => (union_dicts P ds, s')
  end.
Proof. intros ts s d. exact (run_eq (TConj ts) s d). Qed.

Lemma run_stack_inv ts s d d' s' :
  run N P A (TStack ts) s d = (Ok d', s') ->
  exists ds, run_list d ts s = (Ok ds, s') /\ stack_dicts N P ds = Ok d'.
Proof.
  intros H. apply run_ok_body in H. destruct H as [_ H]. cbn [run_body] in H.
  destruct (run_list d ts s) as [[ds|e] s1]; [|discriminate H].
  injection H as H <-. exists ds. split; [reflexivity | exact H].
Qed.

Lemma run_conj_inv ts s d d' s' :
  run N P A (TConj ts) s d = (Ok d', s') ->
  exists ds, run_list d ts s = (Ok ds, s') /\ union_dicts P ds = Ok d'.
Proof.
  intros H. apply run_ok_body in H. destruct H as [_ H]. cbn [run_body] in H.
  destruct (run_list d ts s) as [[ds|e] s1]; [|discriminate H].
  injection H as H <-. exists ds. split; [reflexivity | exact H].
Qed.

Lemma backward_model_eq tensors ord k retain s :
  backward_model N P A tensors ord k retain s =
  if backward_args_ok tensors ord k retain
  then run N P A (backward_transform tensors ord k retain) s empty_dict
  else (Err ValueError, s).
Proof.
  unfold backward_model, backward_args_ok, build_and_run.
  destruct (valid_chunk k); [|reflexivity].
  destruct tensors as [|t0 tensors]; reflexivity.
Qed.

Lemma mtl_backward_model_eq losses features tasks shared k retain s :
  mtl_backward_model N P A losses features tasks shared k retain s =
  if mtl_args_ok P losses features tasks shared k retain
  then run N P A (mtl_transform losses features tasks shared k retain) s empty_dict
  else (Err ValueError, s).
Proof.
  unfold mtl_backward_model, mtl_args_ok, build_and_run, is_nil.
  destruct (valid_chunk k); [|reflexivity].
  destruct features as [|f0 features]; [reflexivity|].
  destruct (inter (concat tasks) shared) as [|q0 qs]; [|reflexivity].
  destruct (forallb _ losses); [|reflexivity].
  destruct losses as [|l0 losses]; [reflexivity|].
  destruct (length (l0 :: losses) =? length tasks); [|reflexivity].
  destruct (expects_all P (shared ++ concat tasks)); reflexivity.
Qed.

(* a call that the argument checks reject leaves the store as it is: what the run of the pipeline
   does to the store, the call does, provided doing nothing is allowed *)
Lemma backward_entry (R : @store T -> @store T -> Prop) tensors ord k retain s r s' :
  R s s ->
  (run N P A (backward_transform tensors ord k retain) s empty_dict = (r, s') -> R s s') ->
  backward_model N P A tensors ord k retain s = (r, s') -> R s s'.
Proof.
  intros Hrefl Hrun. rewrite backward_model_eq. destruct (backward_args_ok _ _ _ _); intros H.
  - exact (Hrun H).
  - injection H as _ <-. exact Hrefl.
Qed.

Lemma mtl_entry (R : @store T -> @store T -> Prop) losses features tasks shared k retain s r s' :
  R s s ->
  (run N P A (mtl_transform losses features tasks shared k retain) s empty_dict = (r, s') -> R s s') ->
  mtl_backward_model N P A losses features tasks shared k retain s = (r, s') -> R s s'.
Proof.
  intros Hrefl Hrun. rewrite mtl_backward_model_eq. destruct (mtl_args_ok _ _ _ _ _ _ _); intros H.
  - exact (Hrun H).
  - injection H as _ <-. exact Hrefl.
Qed.

Lemma backward_ok_inv tensors ord k retain s d' s' :
  backward_model N P A tensors ord k retain s = (Ok d', s') ->
  backward_args_ok tensors ord k retain = true /\
  run N P A (backward_transform tensors ord k retain) s empty_dict = (Ok d', s').
Proof.
  rewrite backward_model_eq. destruct (backward_args_ok _ _ _ _); intros H; [|discriminate H].
  split; [reflexivity | exact H].
Qed.

Lemma mtl_ok_inv losses features tasks shared k retain s d' s' :
  mtl_backward_model N P A losses features tasks shared k retain s = (Ok d', s') ->
  mtl_args_ok P losses features tasks shared k retain = true /\
  run N P A (mtl_transform losses features tasks shared k retain) s empty_dict = (Ok d', s').
Proof.
  rewrite mtl_backward_model_eq. destruct (mtl_args_ok _ _ _ _ _ _ _); intros H; [|discriminate H].
  split; [reflexivity | exact H].
Qed.

(* both pipelines are Accumulate . Aggregate . Jac after a front of their own *)
Lemma pipeline_inv F outs ord k retain s d' s' :
  run N P A (TComp (TAccumulate ord) (TComp (TAggregate ord) (TComp (TJac outs ord k retain) F)))
      s empty_dict = (Ok d', s') ->
  exists dF s1 d2 s2 d5 s5,
    run N P A F s empty_dict = (Ok dF, s1) /\
    run N P A (TJac outs ord k retain) s1 dF = (Ok d2, s2) /\
    run N P A (TAggregate ord) s2 d2 = (Ok d5, s5) /\
    run N P A (TAccumulate ord) s5 d5 = (Ok d', s').
Proof.
  intros H.
  apply run_comp_inv in H. destruct H as (d5 & s5 & H & Hacc).
  apply run_comp_inv in H. destruct H as (d2 & s2 & H & Hagg).
  apply run_comp_inv in H. destruct H as (dF & s1 & HF & Hjac).
  exists dF, s1, d2, s2, d5, s5. split; [exact HF|]. split; [exact Hjac|]. split; assumption.
Qed.

(* One induction for every fact about the store.  [run] changes the store by two primitive steps
   only: an engine sweep (issued by Grad, and by Jac once per chunk) and the fold of
   accumulate_one over the items (Accumulate, after its key check).  A reflexive and transitive
   relation that both steps respect, under a guard on the transforms that passes to
   sub-transforms, is respected by [run]. *)
Section RunInd.
Variable R : @store T -> @store T -> Prop.
Variable G : tr -> Prop.
Hypothesis R_refl : forall s, R s s.
Hypothesis R_trans : forall s1 s2 s3, R s1 s2 -> R s2 s3 -> R s1 s3.
Hypothesis G_stack : forall ts, G (TStack ts) -> Forall G ts.
Hypothesis G_conj : forall ts, G (TConj ts) -> Forall G ts.
Hypothesis G_comp : forall o i, G (TComp o i) -> G o /\ G i.
Hypothesis R_acc : forall ks s d,
  G (TAccumulate ks) -> set_eqb (dkeys d) (dedup ks) = true ->
  R s (fold_left (accumulate_one N) (ditems d) s).
Hypothesis R_grad : forall outs ins retain s r s',
  G (TGrad outs ins retain) -> ag_sweep P s outs ins 1 false retain = (r, s') -> R s s'.
(* every chunk but the last retains the graph, whatever the caller's flag *)
Hypothesis R_jac : forall outs ins k retain rows b rt s r s',
  G (TJac outs ins k retain) -> (rt = true \/ rt = retain) ->
  ag_sweep P s outs ins rows b rt = (r, s') -> R s s'.

Lemma grad_compute_R outs ins retain d s :
  G (TGrad outs ins retain) -> R s (snd (grad_compute N P s outs ins retain d)).
Proof.
  intros Hg. unfold grad_compute.
  destruct ins as [|i0 ins]; [apply R_refl|]. destruct outs as [|o0 outs]; [apply R_refl|].
  pose proof (R_grad _ _ _ s _ _ Hg (surjective_pairing (ag_sweep P s (o0 :: outs) (i0 :: ins) 1 false retain))) as Es.
  revert Es.
  destruct (ag_sweep _ _ _ _ _ _ _) as [[u|e] s1]; intros Es; exact Es.
Qed.

Lemma jac_chunks_R outs ins k retain d plan :
  G (TJac outs ins k retain) ->
  Forall (fun c => c_retain c = true \/ c_retain c = retain) plan ->
  forall s, R s (snd (jac_chunks N P s outs ins d plan)).
Proof.
  intros Hg HF. induction HF as [|c plan Hc HF IH]; intros s; cbn [jac_chunks].
  - apply R_refl.
  - pose proof (R_jac _ _ _ _ _ _ _ s _ _ Hg Hc
                  (surjective_pairing (ag_sweep P s outs ins (c_len c) (c_batched c) (c_retain c)))) as Es.
    revert Es.
    destruct (ag_sweep P s outs ins (c_len c) (c_batched c) (c_retain c)) as [[u|e] s1];
      cbn [snd]; intros Es; [|exact Es].
    specialize (IH s1). revert IH.
    destruct (jac_chunks N P s1 outs ins d plan) as [[rest|e] s2]; cbn [snd]; intros IH;
      exact (R_trans _ _ _ Es IH).
Qed.

Lemma jac_compute_R outs ins k retain d s :
  G (TJac outs ins k retain) -> R s (snd (jac_compute N P s outs ins k retain d)).
Proof.
  intros Hg. unfold jac_compute.
  destruct ins as [|i0 ins]; [apply R_refl|]. destruct outs as [|o0 outs]; [apply R_refl|].
  destruct (max_chunk _ _ =? 0); [apply R_refl|].
  pose proof (jac_chunks_R _ _ _ _ d _ Hg (plan_flags (nrows (dget' d o0)) k retain) s) as Ej.
  revert Ej. destruct (jac_chunks _ _ _ _ _ _ _) as [[mx|e] s1]; intros Ej; exact Ej.
Qed.

Lemma run_list_R d ts :
  Forall (fun t => G t -> forall s d, R s (snd (run N P A t s d))) ts -> Forall G ts ->
  forall s, R s (snd (run_list d ts s)).
Proof.
  intros HF. induction HF as [|t ts Ht HF IH]; intros Hg s.
  - apply R_refl.
  - apply Forall_cons_iff in Hg. destruct Hg as [Hg1 Hg2]. rewrite run_list_cons.
    specialize (Ht Hg1 s d). revert Ht.
    destruct (run N P A t s d) as [[d1|e] s1]; cbn [snd]; intros E1; [|exact E1].
    specialize (IH Hg2 s1). revert IH.
    destruct (run_list d ts s1) as [[ds|e] s2]; cbn [snd]; intros E2; exact (R_trans _ _ _ E1 E2).
Qed.

Theorem run_R_snd t : G t -> forall s d, R s (snd (run N P A t s d)).
Proof.
  induction t as [vals|c|keys req|ts IH|ts IH|o i IHo IHi|keys|outs ins retain|outs ins chunk retain
                 |keys|ord|keys] using tr_ind'; intros Hg s d; rewrite run_eq;
    (destruct (set_eqb _ _) eqn:Ek; cbn [negb]; [|apply R_refl]); cbn [run_body].
  (* Init, Diag, Select and, below, Matrixify, AggMat, Reshape only compute a dictionary: [lift] *)
  - apply R_refl.
  - apply R_refl.
  - apply R_refl.
  - pose proof (run_list_R d ts IH (G_stack _ Hg) s) as EL. revert EL.
    destruct (run_list d ts s) as [[ds|e] s1]; intros EL; exact EL.
  - pose proof (run_list_R d ts IH (G_conj _ Hg) s) as EL. revert EL.
    destruct (run_list d ts s) as [[ds|e] s1]; intros EL; exact EL.
  - destruct (G_comp _ _ Hg) as [Hgo Hgi]. specialize (IHi Hgi s d). revert IHi.
    destruct (run N P A i s d) as [[d1|e] s1]; cbn [snd]; intros Ei; [|exact Ei].
    exact (R_trans _ _ _ Ei (IHo Hgo s1 d1)).
  - unfold accumulate_compute. destruct (expects_all _ _); [|apply R_refl].
    exact (R_acc keys s d Hg Ek).
  - apply grad_compute_R. exact Hg.
  - apply jac_compute_R. exact Hg.
  - apply R_refl.
  - apply R_refl.
  - apply R_refl.
Qed.

Theorem run_R t s d r s' : G t -> run N P A t s d = (r, s') -> R s s'.
Proof. intros Hg H. pose proof (run_R_snd t Hg s d) as K. rewrite H in K. exact K. Qed.

Lemma backward_R tensors ord k retain s r s' :
  G (backward_transform tensors ord k retain) ->
  backward_model N P A tensors ord k retain s = (r, s') -> R s s'.
Proof. intros Hg. apply backward_entry; [apply R_refl | exact (run_R _ _ _ _ _ Hg)]. Qed.

Lemma mtl_R losses features tasks shared k retain s r s' :
  G (mtl_transform losses features tasks shared k retain) ->
  mtl_backward_model N P A losses features tasks shared k retain s = (r, s') -> R s s'.
Proof. intros Hg. apply mtl_entry; [apply R_refl | exact (run_R _ _ _ _ _ Hg)]. Qed.

End RunInd.

End Run.

(* the constructor checks of the transforms are read off [wf] of the pipeline *)
Section Args.
Context {T : Type} (P : prog T).

Lemma is_nil_spec {X} (l : list X) : is_nil l = true <-> l = [].
Proof. destruct l; split; intros H; try reflexivity; discriminate H. Qed.

Lemma wf_comp_inv o i : wf (TComp o i) = true -> wf o = true /\ wf i = true.
Proof. cbn [wf]. intros H. apply andb_prop in H. exact (andb_prop _ _ (proj1 H)). Qed.

Lemma wf_stack_inv ts t : wf (TStack ts) = true -> In t ts -> wf t = true.
Proof.
  cbn [wf]. intros H. apply andb_prop in H. exact (proj1 (forallb_forall wf ts) (proj1 H) t).
Qed.

Lemma wf_pipeline_inv F outs ord k retain :
  wf (TComp (TAccumulate ord) (TComp (TAggregate ord) (TComp (TJac outs ord k retain) F))) = true ->
  nodupb outs = true /\ nodupb ord = true /\ wf F = true.
Proof.
  intros H.
  apply wf_comp_inv in H. destruct H as [_ H].
  apply wf_comp_inv in H. destruct H as [_ H].
  apply wf_comp_inv in H. destruct H as [Hj HF].
  apply andb_prop in Hj. split; [exact (proj1 Hj)|]. split; [exact (proj2 Hj) | exact HF].
Qed.

Lemma wf_backward_inv tensors ord k retain :
  wf (backward_transform tensors ord k retain) = true ->
  nodupb tensors = true /\ nodupb ord = true.
Proof.
  unfold backward_transform. intros H. apply wf_pipeline_inv in H.
  split; [exact (proj1 H) | exact (proj1 (proj2 H))].
Qed.

Lemma wf_mtl_inv : forall losses features tasks shared k retain,
  wf (mtl_transform losses features tasks shared k retain) = true ->
  nodupb features = true /\ nodupb shared = true /\
  forall ps l, In (ps, l) (combine tasks losses) -> nodupb (ps ++ features) = true.
Proof.
  intros losses features tasks shared k retain H. unfold mtl_transform in H.
  apply wf_pipeline_inv in H. destruct H as (Hnf & Hns & Hst).
  split; [exact Hnf|]. split; [exact Hns|].
  intros ps l Hin.
  pose proof (wf_stack_inv _ _ Hst
    (in_map (fun pl => task_transform features (fst pl) (snd pl) retain) _ _ Hin)) as Hm.
  (* the member of a task is Conjunction . Grad [l] (ps ++ features) . Init *)
  unfold task_transform in Hm.
  apply wf_comp_inv in Hm. destruct Hm as [_ Hm].
  apply wf_comp_inv in Hm. destruct Hm as [Hg _].
  exact (proj2 (andb_prop _ _ Hg)).
Qed.

Lemma backward_args_ok_spec tensors ord k retain :
  backward_args_ok tensors ord k retain = true <->
  valid_chunk k = true /\ tensors <> [] /\ NoDup tensors /\ NoDup ord.
Proof.
  split.
  - unfold backward_args_ok. intros H.
    apply andb_prop in H. destruct H as [H Hwf].
    apply andb_prop in H. destruct H as [Hk Hn].
    apply wf_backward_inv in Hwf. destruct Hwf as [Ht Ho].
    split; [exact Hk|]. split; [intros ->; discriminate Hn|].
    split; apply nodupb_spec; assumption.
  - intros (Hk & Hte & Hnt & Hno). unfold backward_args_ok, backward_transform, TAggregate.
    cbn [wf required_keys output_keys].
    rewrite Hk, !set_eqb_refl, (proj2 (nodupb_spec _) Hnt), (proj2 (nodupb_spec _) Hno).
    destruct tensors; [congruence | reflexivity].
Qed.

Lemma mtl_args_ok_spec losses features tasks shared k retain :
  mtl_args_ok P losses features tasks shared k retain = true ->
  valid_chunk k = true /\ features <> [] /\
  (forall q ps, In ps tasks -> In q ps -> ~ In q shared) /\
  (forall l, In l losses -> p_shape P l = []) /\
  losses <> [] /\ length losses = length tasks /\
  (forall q, In q (shared ++ concat tasks) -> p_expects P q = true) /\
  NoDup features /\ NoDup shared /\
  (forall ps l, In (ps, l) (combine tasks losses) -> NoDup (ps ++ features)).
Proof.
  unfold mtl_args_ok. intros H.
  apply andb_prop in H. destruct H as [H Hwf].
  apply andb_prop in H. destruct H as [H He].
  apply andb_prop in H. destruct H as [H Hlen].
  apply andb_prop in H. destruct H as [H Hn].
  apply andb_prop in H. destruct H as [H Hl].
  apply andb_prop in H. destruct H as [H Hi].
  apply andb_prop in H. destruct H as [Hk Hf].
  apply wf_mtl_inv in Hwf. destruct Hwf as (Hnf & Hns & Hnt).
  split; [exact Hk|]. split; [intros ->; discriminate Hf|].
  split.
  { intros q ps Hps Hq Hsh. apply is_nil_spec in Hi.
    assert (Hin : In q (inter (concat tasks) shared)).
    { apply inter_In. split; [|exact Hsh]. apply in_concat. exists ps. split; assumption. }
    rewrite Hi in Hin. exact Hin. }
  split; [intros l Hin; rewrite forallb_forall in Hl; apply is_nil_spec, Hl, Hin|].
  split; [intros ->; discriminate Hn|]. split; [apply Nat.eqb_eq; exact Hlen|].
  split; [unfold expects_all in He; rewrite forallb_forall in He; exact He|].
  split; [apply nodupb_spec, Hnf|]. split; [apply nodupb_spec, Hns|].
  intros ps l Hin. apply nodupb_spec. exact (Hnt ps l Hin).
Qed.

End Args.

Section C20.
Context {T : Type} (N : Num T) (P : prog T) (A : list (list T) -> res (list T)).

Fixpoint no_acc (t : tr) : bool :=
  match t with
  | TAccumulate _ => false
  | TStack ts | TConj ts => forallb no_acc ts
  | TComp o i => no_acc o && no_acc i
  | _ => true
  end.

Lemma no_acc_grads : forall t s d r s', no_acc t = true -> run N P A t s d = (r, s') -> s_grads s' = s_grads s.
Proof.
  intros t s d r s'.
  apply (run_R N P A (fun s1 s2 => s_grads s2 = s_grads s1) (fun t => no_acc t = true)); clear.
  - reflexivity.
  - intros s1 s2 s3 E1 E2. rewrite E2. exact E1.
  - intros ts H. apply forallb_Forall_true. exact H.
  - intros ts H. apply forallb_Forall_true. exact H.
  - intros o i H. apply andb_true_iff. exact H.
  - intros ks s d H. discriminate H.
  - intros outs ins retain s r s' _ H. exact (ag_sweep_grads P _ _ _ _ _ _ _ _ H).
  - intros outs ins k retain rows b rt s r s' _ _ H. exact (ag_sweep_grads P _ _ _ _ _ _ _ _ H).
Qed.

Lemma backward_atomic : forall tensors ord k retain s e s',
  backward_model N P A tensors ord k retain s = (Err e, s') -> s_grads s' = s_grads s.
Proof.
  intros tensors ord k retain s e s' H. rewrite backward_model_eq in H.
  destruct (backward_args_ok _ _ _ _); [|injection H as _ <-; reflexivity].
  unfold backward_transform in H.
  apply run_comp_err in H. destruct H as [[_ Hs]|[H|[d1 [s1 [H1 H2]]]]].
  - subst s'. reflexivity.
  - eapply no_acc_grads; [|exact H]. reflexivity.
  - apply run_accumulate_err in H2. subst s'. eapply no_acc_grads; [|exact H1]. reflexivity.
Qed.

Lemma backward_args_rejected : forall tensors ord k retain s,
  backward_args_ok tensors ord k retain = false ->
  backward_model N P A tensors ord k retain s = (Err ValueError, s).
Proof. intros tensors ord k retain s E. rewrite backward_model_eq, E. reflexivity. Qed.

Lemma mtl_args_rejected : forall losses features tasks shared k retain s,
  mtl_args_ok P losses features tasks shared k retain = false ->
  mtl_backward_model N P A losses features tasks shared k retain s = (Err ValueError, s).
Proof. intros losses features tasks shared k retain s E. rewrite mtl_backward_model_eq, E. reflexivity. Qed.

Lemma mtl_args_accepted : forall losses features tasks shared k retain s,
  mtl_args_ok P losses features tasks shared k retain = true ->
  mtl_backward_model N P A losses features tasks shared k retain s
  = run N P A (mtl_transform losses features tasks shared k retain) s empty_dict.
Proof. intros losses features tasks shared k retain s E. rewrite mtl_backward_model_eq, E. reflexivity. Qed.

Lemma bad_chunk : forall losses features tasks shared retain,
  mtl_args_ok P losses features tasks shared (Some 0) retain = false.
Proof. intros losses features tasks shared retain. reflexivity. Qed.

Lemma bad_no_features : forall losses tasks shared k retain,
  mtl_args_ok P losses [] tasks shared k retain = false.
Proof.
  intros losses tasks shared k retain. apply not_true_is_false. intros E.
  apply mtl_args_ok_spec in E.
  destruct E as (Hk & Hfe & Hsep & Hsc & Hlo & Hlen & Hexp & Hnf & Hns & Hnt).
  exact (Hfe eq_refl).
Qed.

Lemma bad_no_losses : forall features tasks shared k retain,
  mtl_args_ok P [] features tasks shared k retain = false.
Proof.
  intros features tasks shared k retain. apply not_true_is_false. intros E.
  apply mtl_args_ok_spec in E.
  destruct E as (Hk & Hfe & Hsep & Hsc & Hlo & Hlen & Hexp & Hnf & Hns & Hnt).
  exact (Hlo eq_refl).
Qed.

Lemma bad_nonscalar_loss : forall losses features tasks shared k retain l,
  In l losses -> p_shape P l <> [] -> mtl_args_ok P losses features tasks shared k retain = false.
Proof.
  intros losses features tasks shared k retain l Hin Hsh. apply not_true_is_false. intros E.
  apply mtl_args_ok_spec in E.
  destruct E as (Hk & Hfe & Hsep & Hsc & Hlo & Hlen & Hexp & Hnf & Hns & Hnt).
  exact (Hsh (Hsc l Hin)).
Qed.

Lemma bad_length_mismatch : forall losses features tasks shared k retain,
  length losses <> length tasks -> mtl_args_ok P losses features tasks shared k retain = false.
Proof.
  intros losses features tasks shared k retain Hne. apply not_true_is_false. intros E.
  apply mtl_args_ok_spec in E.
  destruct E as (Hk & Hfe & Hsep & Hsc & Hlo & Hlen & Hexp & Hnf & Hns & Hnt).
  exact (Hne Hlen).
Qed.

Lemma bad_overlap : forall losses features tasks shared k retain q ps,
  In ps tasks -> In q ps -> In q shared -> mtl_args_ok P losses features tasks shared k retain = false.
Proof.
  intros losses features tasks shared k retain q ps Hps Hq Hsh. apply not_true_is_false. intros E.
  apply mtl_args_ok_spec in E.
  destruct E as (Hk & Hfe & Hsep & Hsc & Hlo & Hlen & Hexp & Hnf & Hns & Hnt).
  exact (Hsep q ps Hps Hq Hsh).
Qed.

Lemma bad_param_no_grad : forall losses features tasks shared k retain q,
  In q (shared ++ concat tasks) -> p_expects P q = false ->
  mtl_args_ok P losses features tasks shared k retain = false.
Proof.
  intros losses features tasks shared k retain q Hin Hq. apply not_true_is_false. intros E.
  apply mtl_args_ok_spec in E.
  destruct E as (Hk & Hfe & Hsep & Hsc & Hlo & Hlen & Hexp & Hnf & Hns & Hnt).
  rewrite (Hexp q Hin) in Hq. discriminate Hq.
Qed.

Lemma c20_nodupb_false : forall l, ~ NoDup l -> nodupb l = false.
Proof.
  intros l H. destruct (nodupb l) eqn:E; [|reflexivity].
  exfalso. apply H. apply nodupb_spec. exact E.
Qed.

Lemma bad_duplicate_features : forall losses features tasks shared k retain,
  ~ NoDup features -> mtl_args_ok P losses features tasks shared k retain = false.
Proof.
  intros losses features tasks shared k retain Hnd. apply not_true_is_false. intros E.
  apply mtl_args_ok_spec in E.
  destruct E as (Hk & Hfe & Hsep & Hsc & Hlo & Hlen & Hexp & Hnf & Hns & Hnt).
  exact (Hnd Hnf).
Qed.

Lemma bad_duplicate_shared : forall losses features tasks shared k retain,
  ~ NoDup shared -> mtl_args_ok P losses features tasks shared k retain = false.
Proof.
  intros losses features tasks shared k retain Hnd. apply not_true_is_false. intros E.
  apply mtl_args_ok_spec in E.
  destruct E as (Hk & Hfe & Hsep & Hsc & Hlo & Hlen & Hexp & Hnf & Hns & Hnt).
  exact (Hnd Hns).
Qed.

Lemma bad_duplicate_task_params : forall losses features tasks shared k retain ps l,
  In (ps, l) (combine tasks losses) -> ~ NoDup (ps ++ features) ->
  mtl_args_ok P losses features tasks shared k retain = false.
Proof.
  intros losses features tasks shared k retain ps l Hin Hnd. apply not_true_is_false. intros E.
  apply mtl_args_ok_spec in E.
  destruct E as (Hk & Hfe & Hsep & Hsc & Hlo & Hlen & Hexp & Hnf & Hns & Hnt).
  exact (Hnd (Hnt ps l Hin)).
Qed.

Lemma bad_backward_chunk : forall tensors ord retain, backward_args_ok tensors ord (Some 0) retain = false.
Proof. intros tensors ord retain. reflexivity. Qed.

Lemma bad_backward_empty : forall ord k retain, backward_args_ok [] ord k retain = false.
Proof.
  intros ord k retain. apply not_true_is_false. intros E.
  apply backward_args_ok_spec in E. destruct E as (_ & E & _). exact (E eq_refl).
Qed.

Lemma bad_backward_duplicate_tensors : forall tensors ord k retain,
  ~ NoDup tensors -> backward_args_ok tensors ord k retain = false.
Proof.
  intros tensors ord k retain Hnd. apply not_true_is_false. intros E.
  apply backward_args_ok_spec in E. destruct E as (_ & _ & E & _). exact (Hnd E).
Qed.
End C20.

Print Assumptions backward_atomic.
Print Assumptions mtl_args_rejected.
Print Assumptions mtl_args_accepted.
Print Assumptions no_acc_grads.
Print Assumptions bad_duplicate_task_params.
