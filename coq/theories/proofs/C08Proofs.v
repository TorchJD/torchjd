(* Weighted aggregators: A(J Q) = A(J) Q for Q with orthonormal rows, because each model weights the
   rows of J by a function of the Gramian alone; the row span; zero columns under TrimmedMean. *)
From Coq Require Import Reals List Lra.
From TJ Require Import Num Linalg NumR Agg.
From TJ.proofs Require Import LinalgR C16Proofs.
Import ListNotations.
Local Open Scope R_scope.

Notation mmulR := (mmul RN).

(* Q : n rows of length p with orthonormal rows (Q Q^T = I_n).  For square Q this is an
   orthogonal matrix; p = n+z with Q = [I | 0] inserts z zero columns; a permutation matrix
   permutes columns. *)
Definition orth (n p : nat) (Q : list (list R)) : Prop :=
  wfmat p Q /\ length Q = n /\ forall s, length s = n -> mvR (gramR Q) s = s.

Lemma length_mmul p J Q : length (mmulR p J Q) = length J.
Proof. apply map_length. Qed.

Lemma wfmat_mmul p J Q : wfmat p Q -> wfmat p (mmulR p J Q).
Proof. intros HQ. apply wfmat_map. intros r _. apply length_vm. exact HQ. Qed.

Lemma mget_mmul m A B i j : (i < length A)%nat -> wfmat m B -> length (nth i A []) = length B ->
  (j < m)%nat -> mget RN (mmulR m A B) i j = dotR (nth i A []) (column RN B j).
Proof.
  intros Hi HB Hl Hj. unfold mget, mmul.
  rewrite (nth_map_lt (fun r => vmR m r B) A i [] [] Hi). apply nth_vm; assumption.
Qed.

Lemma mv_mmul n p U Q z : wfmat p Q -> wfmat n U -> length Q = n ->
  mvR (mmulR p U Q) z = mvR U (mvR Q z).
Proof.
  intros HQ HU Hl. unfold mmul, mv at 1. rewrite map_map. unfold mv at 1.
  apply map_ext_in. intros r Hr.
  apply (dot_vm p r Q z HQ). rewrite (wfmat_In n U r HU Hr). symmetry. exact Hl.
Qed.

Lemma dot_mmul n p Q r s : orth n p Q -> length r = n -> length s = n ->
  dotR (vmR p r Q) (vmR p s Q) = dotR r s.
Proof.
  intros (HQ & Hl & Ho) Hr Hs.
  rewrite (dot_vm p) by (auto; congruence).
  rewrite <- (mv_gram p) by (auto; congruence). rewrite Ho by exact Hs. reflexivity.
Qed.

Lemma mv_vm_orth n p Q y : orth n p Q -> length y = n -> mvR Q (vmR p y Q) = y.
Proof.
  intros (HQ & Hl & Ho) Hy. rewrite <- (mv_gram p Q y HQ) by congruence. apply Ho. exact Hy.
Qed.

Lemma orth_rows r p V : length V = r -> wfmat p V ->
  (forall k l, (k < r)%nat -> (l < r)%nat ->
     dotR (nth k V []) (nth l V []) = if (k =? l)%nat then 1 else 0) ->
  orth r p V.
Proof.
  intros HlV HwV Hrows. split; [exact HwV|]. split; [exact HlV|]. intros y Hy.
  apply (nth_ext _ _ 0 0); [rewrite length_mv, length_gram; congruence|].
  intros i Hi. rewrite length_mv, length_gram, HlV in Hi.
  rewrite nth_mv, nth_gram_row by (rewrite ?length_gram, HlV; exact Hi).
  replace (map (fun s => dotR (nth i V []) s) V) with (onehotR r i 1).
  - rewrite (dot_onehot r 1 i y Hy). apply Rmult_1_l.
  - apply (nth_ext _ _ 0 0); [rewrite length_onehot, map_length; congruence|].
    intros j Hj. rewrite length_onehot in Hj. rewrite nth_onehot by exact Hj.
    rewrite (nth_map_lt (fun s => dotR (nth i V []) s) V j 0 []) by (rewrite HlV; exact Hj).
    symmetry. apply Hrows; assumption.
Qed.

Theorem gram_mmul n p J Q : orth n p Q -> wfmat n J -> gramR (mmulR p J Q) = gramR J.
Proof.
  intros Ho HJ. unfold gram, mmul. rewrite map_map. apply map_ext_in. intros r Hr.
  rewrite map_map. apply map_ext_in. intros s Hs.
  apply (dot_mmul n p Q); eauto using wfmat_In.
Qed.

Theorem vm_mmul n p J Q : wfmat p Q -> wfmat n J -> forall w,
  vmR p (vmR n w J) Q = vmR p w (mmulR p J Q).
Proof.
  intros HQ HJ. induction HJ as [|r J Hr HJ IH]; intros [|x w]; cbn [vm mmul map];
    try (apply vm_vzero_any; exact HQ).
  fold (mmulR p J Q).
  rewrite vm_vadd by (rewrite length_vscale, (length_vm n) by exact HJ; exact Hr).
  rewrite vm_vscale, IH. reflexivity.
Qed.

Lemma combine_mmul n p J Q w : wfmat p Q -> wfmat n J -> J <> [] ->
  combineR (mmulR p J Q) w = vmR p (combineR J w) Q.
Proof.
  intros HQ HJ Hne.
  assert (Hne' : mmulR p J Q <> []) by (destruct J; [congruence|discriminate]).
  rewrite (combine_wf n J), (combine_wf p (mmulR p J Q)) by auto using wfmat_mmul.
  symmetry. apply vm_mmul; assumption.
Qed.

Definition res_map {A B} (f : A -> B) (r : res A) : res B :=
  match r with Ok a => Ok (f a) | Err e => Err e end.

(* the meta-theorem: any weighting that looks at J only through its Gramian commutes with Q *)
Theorem orthogonal_meta_res n p J Q (Omega : list (list R) -> res (list R)) :
  orth n p Q -> wfmat n J -> J <> [] ->
  weighted RN (mmulR p J Q) (Omega (gramR (mmulR p J Q))) =
  res_map (fun v => vmR p v Q) (weighted RN J (Omega (gramR J))).
Proof.
  intros Ho HJ Hne. rewrite (gram_mmul n p) by assumption.
  destruct (Omega (gramR J)) as [w|e]; cbn [weighted rbind res_map]; [|reflexivity].
  f_equal. apply (combine_mmul n); [apply Ho | exact HJ | exact Hne].
Qed.

(* the same for an aggregator given with its Gramian form, failing (A) or total (a) *)
Lemma orthogonal_agg n p J Q : orth n p Q -> wfmat n J -> J <> [] ->
  forall (A : list (list R) -> res (list R)) Omega,
  (forall J, A J = weighted RN J (Omega (gramR J))) ->
  A (mmulR p J Q) = res_map (fun v => vmR p v Q) (A J).
Proof.
  intros Ho HJ Hne A Omega HA. rewrite !HA. apply (orthogonal_meta_res n); assumption.
Qed.

Lemma orthogonal_agg_total n p J Q : orth n p Q -> wfmat n J -> J <> [] ->
  forall (a : list (list R) -> list R) Omega,
  (forall J, Ok (a J) = weighted RN J (Omega (gramR J))) ->
  a (mmulR p J Q) = vmR p (a J) Q.
Proof.
  intros Ho HJ Hne a Omega Ha.
  pose proof (orthogonal_agg n p J Q Ho HJ Hne (fun J => Ok (a J)) Omega Ha) as E.
  injection E as E. exact E.
Qed.

(* the weighting of each model as a function of the Gramian *)
Definition Om_mean (G : list (list R)) := Ok (mean_weights RN (length G)).
Definition Om_sum (G : list (list R)) := Ok (sum_weights RN (length G)).
Definition Om_constant (w : list R) (G : list (list R)) := constant_weights w (length G).
Definition Om_random (e : list R) (G : list (list R)) := Ok (random_weights RN e).
Definition Om_dualproj qp pref s ne re (G : list (list R)) :=
  rbind (pref_weights pref (mean_weights RN (length G)) (length G))
        (fun u => Ok (dualproj_weights RN qp G s ne re u)).
Definition Om_upgrad qp pref s ne re (G : list (list R)) :=
  rbind (pref_weights pref (mean_weights RN (length G)) (length G))
        (fun u => Ok (upgrad_weights RN qp G s ne re u)).
Definition Om_mgda eps iters (G : list (list R)) := Ok (mgda_weights RN G eps iters).
Definition Om_pcgrad perms (G : list (list R)) := Ok (pcgrad_weights RN G perms).
Definition Om_krum f k (G : list (list R)) :=
  if (length G <? f + 3)%nat then Err ValueError
  else if (length G <? k)%nat then Err ValueError
  else Ok (krum_weights_of_dist RN (krum_distances RN G) f k).
Definition Om_imtlg P thr (G : list (list R)) := Ok (imtlg_weights RN P G thr).
Definition Om_cagrad s ne c w_opt (G : list (list R)) := Ok (cagrad_weights RN G s ne c w_opt).
Definition Om_aligned lam Vt tol pref (G : list (list R)) :=
  rbind (pref_weights pref (mean_weights RN (length G)) (length G))
        (fun w => Ok (mvR (aligned_balance RN lam Vt tol) w)).

Lemma weighted_rbind {A} J (r : res A) (f : A -> list R) :
  weighted RN J (rbind r (fun u => Ok (f u))) = rbind r (fun u => Ok (combineR J (f u))).
Proof. destruct r; reflexivity. Qed.

Ltac gramform := intros; unfold weighted; cbn [rbind]; rewrite ?length_gram; reflexivity.

Lemma gf_mean J : Ok (agg_mean RN J) = weighted RN J (Om_mean (gramR J)).
Proof. unfold agg_mean, Om_mean. gramform. Qed.
Lemma gf_sum J : Ok (agg_sum RN J) = weighted RN J (Om_sum (gramR J)).
Proof. unfold agg_sum, Om_sum. gramform. Qed.
Lemma gf_constant w J : agg_constant RN w J = weighted RN J (Om_constant w (gramR J)).
Proof. unfold agg_constant, Om_constant. rewrite length_gram. reflexivity. Qed.
Lemma gf_random e J : Ok (agg_random RN e J) = weighted RN J (Om_random e (gramR J)).
Proof. unfold agg_random, Om_random. gramform. Qed.
Lemma gf_dualproj qp pref s ne re J :
  agg_dualproj RN qp pref s ne re J = weighted RN J (Om_dualproj qp pref s ne re (gramR J)).
Proof.
  unfold agg_dualproj, Om_dualproj. rewrite length_gram. symmetry. apply weighted_rbind.
Qed.
Lemma gf_upgrad qp pref s ne re J :
  agg_upgrad RN qp pref s ne re J = weighted RN J (Om_upgrad qp pref s ne re (gramR J)).
Proof.
  unfold agg_upgrad, Om_upgrad. rewrite length_gram. symmetry. apply weighted_rbind.
Qed.
Lemma gf_mgda eps iters J : Ok (agg_mgda RN eps iters J) = weighted RN J (Om_mgda eps iters (gramR J)).
Proof. unfold agg_mgda, Om_mgda. gramform. Qed.
Lemma gf_pcgrad perms J : Ok (agg_pcgrad RN perms J) = weighted RN J (Om_pcgrad perms (gramR J)).
Proof. unfold agg_pcgrad, Om_pcgrad. gramform. Qed.
Lemma gf_krum f k J : agg_krum RN f k J = weighted RN J (Om_krum f k (gramR J)).
Proof.
  unfold agg_krum, Om_krum, weighted. rewrite length_gram.
  destruct (length J <? f + 3)%nat; [reflexivity|]. destruct (length J <? k)%nat; reflexivity.
Qed.

Lemma length_Om_krum f k G w : Om_krum f k G = Ok w -> length w = length G.
Proof.
  unfold Om_krum. destruct (_ <? _)%nat; [discriminate|]. destruct (_ <? _)%nat; [discriminate|].
  intros E. injection E as <-. rewrite length_krum_weights. apply length_krum_distances.
Qed.
Lemma gf_imtlg P thr J : Ok (agg_imtlg RN P thr J) = weighted RN J (Om_imtlg P thr (gramR J)).
Proof. unfold agg_imtlg, Om_imtlg. gramform. Qed.
Lemma gf_cagrad s ne c w_opt J :
  Ok (agg_cagrad RN s ne c w_opt J) = weighted RN J (Om_cagrad s ne c w_opt (gramR J)).
Proof. unfold agg_cagrad, Om_cagrad. gramform. Qed.
Lemma gf_aligned lam Vt tol pref J :
  agg_aligned RN lam Vt tol pref J = weighted RN J (Om_aligned lam Vt tol pref (gramR J)).
Proof.
  unfold agg_aligned, Om_aligned. rewrite length_gram. symmetry. apply weighted_rbind.
Qed.

(* row span: by the shape of the model, every weighted aggregator returns w . J *)
Definition in_row_span (J : list (list R)) (v : list R) : Prop :=
  exists w, length w = length J /\ v = combineR J w.

Theorem weighted_in_span J (r : res (list R)) v :
  weighted RN J r = Ok v -> exists w, v = combineR J w.
Proof. destruct r as [w|e]; cbn; intros H; [injection H as <-; eauto|discriminate]. Qed.

Lemma isort_repeat0 k : isort RN (repeat 0 k) = repeat 0 k.
Proof.
  induction k as [|k IH]; [reflexivity|]. cbn [repeat isort]. rewrite IH.
  destruct k; [reflexivity|]. cbn [repeat insert]. rn.
  assert (E : Rleb 0 0 = true) by (apply Rleb_true; lra). rewrite E. reflexivity.
Qed.

Theorem trimmed_zero_column b k : (2 * b + 1 <= k)%nat -> trimmed RN b (repeat 0 k) = 0.
Proof.
  intros H. unfold trimmed. rewrite isort_repeat0, repeat_length, skipn_repeat, firstn_repeat.
  rewrite vsum_repeat. rn. unfold Rdiv. rewrite Rmult_0_r, Rmult_0_l. reflexivity.
Qed.
