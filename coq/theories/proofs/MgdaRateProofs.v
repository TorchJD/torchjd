(* O(1/K) convergence rate of the Frank-Wolfe loop that models MGDA:
   |A(J)|^2 - |x*|^2 <= 8 s^2 / (K + 2), where x* is the minimum-norm point of the convex hull of
   the rows of J, s bounds the largest singular value of J and K = max_iters (epsilon = 0). *)
From Coq Require Import Reals List Lia Lra.
From TJ Require Import Linalg NumR Agg.
From TJ.proofs Require Import LinalgR QPProofs C18Proofs MgdaProofs.
Import ListNotations.
Local Open Scope R_scope.

(* the step size is non-negative, so epsilon = 0 never stops the loop *)
Lemma mgda_step_gamma_nonneg G alpha : 0 <= snd (mgda_step RN G alpha).
Proof.
  rewrite mgda_step_eq. exact (proj1 (fw_gamma_range _ _ _)).
Qed.

(* One Frank-Wolfe step, measured against any point w of the simplex, with h = q(alpha) - q(w):
   h' <= (1 - t) h + 2 s^2 t^2 for every t in [0,1].  The step is at least as good as the point at
   t of the segment towards the chosen vertex e; there the linear part gains t h, because e
   minimises the linear functional (so <e, G alpha> <= <w, G alpha>) and q is convex, and the
   quadratic part costs at most t^2 |(alpha - e) . J|^2 <= t^2 s^2 |alpha - e|^2 <= 2 s^2 t^2. *)
Lemma mgda_step_progress n J w s alpha t : wfmat n J -> simplex (length J) w ->
  (forall v, length v = length J -> dotR (vmR n v J) (vmR n v J) <= s * s * dotR v v) ->
  simplex (length J) alpha -> 0 <= t <= 1 ->
  qf (gramR J) (fst (mgda_step RN (gramR J) alpha)) - qf (gramR J) w <=
  (1 - t) * (qf (gramR J) alpha - qf (gramR J) w) + 2 * (s * s) * (t * t).
Proof.
  intros HJ Hw Hsing Hsx Ht.
  destruct (mgda_step_spec n J alpha HJ Hsx) as (i & Hi & Hlmo & Hopt).
  pose proof (symm_gram n J HJ) as Hsym. pose proof (psd_gram n J HJ) as Hpsd.
  set (G := gramR J) in *. set (m := length J) in *. set (e := onehotR m i 1) in *.
  pose proof (proj1 Hsx) as Hla. pose proof (proj1 Hw) as Hlw.
  assert (Hle : length e = m) by apply length_onehot.
  assert (Hgap : 2 * bil G alpha e <= qf G w + qf G alpha).
  { pose proof (Hlmo w Hw) as H1. rewrite (Hsym e alpha Hle Hla) in H1.
    pose proof (Hpsd (vsubR w alpha) ltac:(rewrite length_vsub; congruence)) as H2.
    rewrite (qf_vsub m) in H2 by assumption. lra. }
  assert (Hcurv : qf G alpha + qf G e - 2 * bil G alpha e <= 2 * (s * s)).
  { assert (Hlv : length (vsubR alpha e) = m) by (rewrite length_vsub; congruence).
    pose proof (Hsing _ Hlv) as H1. rewrite <- (qf_gram n) in H1 by assumption. fold G in H1.
    rewrite (qf_vsub m), dot_vsub_self in H1 by first [assumption | congruence].
    pose proof (simplex_diff_sq m alpha e Hsx (simplex_onehot m i Hi)) as H2.
    pose proof (Rmult_le_compat_l (s * s) _ _ (Rle_0_sqr s) H2) as H3. lra. }
  specialize (Hopt t Ht). rewrite qseg_slope in Hopt.
  pose proof (Rmult_le_pos t (qf G w + qf G alpha - 2 * bil G alpha e) (proj1 Ht) ltac:(lra)) as P1.
  pose proof (Rmult_le_pos _ (2 * (s * s) - (qf G alpha + qf G e - 2 * bil G alpha e))
                (Rle_0_sqr t) ltac:(lra)) as P2.
  unfold Rsqr in P2. lra.
Qed.

(* the recurrence h' <= (1-t) h + 2 S t^2 gives 8 S / r -> 8 S / (r + 1), taking t = 2 / r *)
Lemma rate_step S h h' r : 0 <= S -> 2 <= r -> h <= 8 * S / r ->
  (forall t, 0 <= t <= 1 -> h' <= (1 - t) * h + 2 * S * (t * t)) ->
  h' <= 8 * S / (r + 1).
Proof.
  intros HS Hr Hh Hrec.
  set (u := / r).
  assert (Hu0 : 0 < u) by (unfold u; apply Rinv_0_lt_compat; lra).
  assert (Hur : u * r = 1) by (unfold u; field; lra).
  assert (Hu1 : 2 * u <= 1).
  { apply (Rmult_le_reg_r r); [lra|]. rewrite Rmult_assoc, Hur. lra. }
  specialize (Hrec (2 * u) ltac:(lra)).
  assert (Hh' : h <= 8 * S * u) by exact Hh.
  pose proof (Rmult_le_compat_l (1 - 2 * u) _ _ ltac:(lra) Hh') as P1.
  assert (H1 : h' <= 8 * S * (u * (1 - u))).
  { apply Rle_trans with (1 := Hrec).
    replace (8 * S * (u * (1 - u)))
      with ((1 - 2 * u) * (8 * S * u) + 2 * S * (2 * u * (2 * u))) by ring.
    lra. }
  assert (H2 : / (r + 1) - u * (1 - u) = / (r * r * (r + 1))) by (unfold u; field; lra).
  assert (H3 : 0 < / (r * r * (r + 1))).
  { apply Rinv_0_lt_compat. apply Rmult_lt_0_compat; [apply Rmult_lt_0_compat|]; lra. }
  assert (H4 : u * (1 - u) <= / (r + 1)) by lra.
  pose proof (Rmult_le_compat_l (8 * S) _ _ ltac:(lra) H4) as P2.
  unfold Rdiv. lra.
Qed.

Lemma mgda_loop_rate n J w s : wfmat n J -> simplex (length J) w ->
  (forall v, length v = length J -> dotR (vmR n v J) (vmR n v J) <= s * s * dotR v v) ->
  forall k alpha r, simplex (length J) alpha -> 2 <= r ->
    qf (gramR J) alpha - qf (gramR J) w <= 8 * (s * s) / r ->
    qf (gramR J) (mgda_loop RN k (gramR J) 0 alpha) - qf (gramR J) w <= 8 * (s * s) / (r + INR k).
Proof.
  intros HJ Hw Hsing. induction k as [|k IH]; intros alpha r Ha Hr Hh.
  - cbn [mgda_loop INR]. rewrite Rplus_0_r. exact Hh.
  - cbn [mgda_loop].
    pose proof (simplex_nonempty _ _ Ha) as Hm.
    pose proof (mgda_step_simplex (length J) (gramR J) alpha Hm (length_gram J) Ha) as Hstep.
    pose proof (mgda_step_gamma_nonneg (gramR J) alpha) as Hg.
    pose proof (fun t => mgda_step_progress n J w s alpha t HJ Hw Hsing Ha) as Hprog.
    destruct (mgda_step RN (gramR J) alpha) as [alpha' gamma]. cbn [fst snd] in *.
    rn. replace (Rltb gamma 0) with false by (symmetry; apply Rltb_false; exact Hg).
    pose proof (rate_step (s * s) _ _ r (Rle_0_sqr s) Hr Hh Hprog) as Hnext.
    rewrite S_INR. replace (r + (INR k + 1)) with ((r + 1) + INR k) by ring.
    apply IH; [exact Hstep | lra | exact Hnext].
Qed.

(* The bound holds against every point of the hull, not only the one of least norm. *)
Theorem mgda_fw_rate_hull n J K w s : wfmat n J -> simplex (length J) w ->
  (forall v, length v = length J -> dotR (vmR n v J) (vmR n v J) <= s * s * dotR v v) ->
  let x := agg_mgda RN 0 K J in
  dotR x x - dotR (vmR n w J) (vmR n w J) <= 8 * (s * s) / (INR K + 2).
Proof.
  intros HJ Hw Hsing. cbv zeta.
  pose proof (simplex_nonempty _ _ Hw) as Hm.
  assert (Hne : J <> []) by (intros E; rewrite E in Hm; cbn in Hm; lia).
  pose proof (simplex_mean (length J) Hm) as Hmean.
  pose proof (mgda_loop_simplex (length J) (gramR J) 0 K _ Hm (length_gram J) Hmean) as Hloop.
  unfold agg_mgda, mgda_weights. rewrite (combine_wf n) by assumption. rewrite length_gram.
  rewrite <- !(qf_gram n) by first [exact HJ | exact (proj1 Hloop) | exact (proj1 Hw)].
  replace (INR K + 2) with (2 + INR K) by ring.
  apply (mgda_loop_rate n J w s HJ Hw Hsing K _ 2 Hmean); [lra|].
  (* q(mean) <= s^2 |mean|^2 <= s^2 and 0 <= q(w) *)
  pose proof (Hsing _ (proj1 Hmean)) as H1. rewrite <- (qf_gram n) in H1 by (try exact HJ; exact (proj1 Hmean)).
  pose proof (Rmult_le_compat_l (s * s) _ _ (Rle_0_sqr s) (simplex_dot_self_le1 _ _ Hmean)) as H2.
  pose proof (psd_gram n J HJ w (proj1 Hw)) as H3.
  pose proof (Rle_0_sqr s) as H4. unfold Rsqr in H4.
  unfold Rdiv. lra.
Qed.

Theorem mgda_fw_rate n J K wstar s : wfmat n J -> hull_min n J wstar -> 0 <= s ->
  (forall v, length v = length J -> dotR (vmR n v J) (vmR n v J) <= s * s * dotR v v) ->
  let x := agg_mgda RN 0 K J in
  let xstar := vmR n wstar J in
  dotR x x - dotR xstar xstar <= 8 * (s * s) / (INR K + 2).
Proof. intros HJ [Hst _] _ Hsing. exact (mgda_fw_rate_hull n J K wstar s HJ Hst Hsing). Qed.

(* the hypotheses are satisfiable: J = I_2, s = 1, wstar = (1/2, 1/2) *)
Example mgda_fw_rate_id2 K :
  let J := [[1; 0]; [0; 1]] in
  let x := agg_mgda RN 0 K J in
  dotR x x - / 2 <= 8 / (INR K + 2).
Proof.
  cbv zeta. set (J := [[1; 0]; [0; 1]]).
  assert (HJ : wfmat 2 J) by (repeat constructor).
  assert (Hw : simplex (length J) [/ 2; / 2]).
  { split; [reflexivity|]. split; [repeat constructor; lra | cbn; lra]. }
  assert (Hsing : forall v, length v = length J ->
            dotR (vmR 2 v J) (vmR 2 v J) <= 1 * 1 * dotR v v).
  { intros [|p [|q [|z v]]] Hv; cbn in Hv; try lia.
    change (vmR 2 [p; q] J) with [p * 1 + (q * 0 + 0); p * 0 + (q * 1 + 0)].
    cbn [dot]. rn. apply Req_le. ring. }
  pose proof (mgda_fw_rate_hull 2 J K [/ 2; / 2] 1 HJ Hw Hsing) as H. cbv zeta in H.
  change (vmR 2 [/ 2; / 2] J) with [/ 2 * 1 + (/ 2 * 0 + 0); / 2 * 0 + (/ 2 * 1 + 0)] in H.
  cbn [dot] in H. rn. lra.
Qed.

Print Assumptions mgda_fw_rate.
