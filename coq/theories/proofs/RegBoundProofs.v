(* The effect of the regularisation reg_eps in UPGrad / DualProj is O(sqrt reg_eps).  For a symmetric
   G, the minimisers w0 of qf G and we of qf (G + e I) over {v >= u} satisfy
   qf G (we - w0) <= e <we, w0 - we> <= e |w0|^2 / 4  (qp_reg_perturbation).  Hence the outputs with
   reg_eps = re and with reg_eps = 0 differ by at most  sqrt re * s / 2 * |w0|  (UPGrad: sum_i |w0_i|),
   and the defect of "linearity under positive row scaling" (C09) of UPGrad tends to 0 with reg_eps,
   uniformly in the oracle used for the regularised problems. *)
From Coq Require Import Reals List Lia Lra.
From TJ Require Import Num Linalg NumR Agg.
From TJ.proofs Require Import LinalgR QPProofs C08Proofs C11Proofs PublishedProofs ScalingProofs SpectralProofs.
Import ListNotations.
Local Open Scope R_scope.

Lemma vsub_self_zero : forall k, vsubR (vzeroR k) (vzeroR k) = vzeroR k.
Proof.
  unfold vzero. induction k as [|k IH]; [reflexivity|]. cbn [repeat vsub]. rewrite IH. rn.
  f_equal. ring.
Qed.

Lemma lincomb_vsub a b x1 x2 y1 y2 :
  length x2 = length x1 -> length y1 = length x1 -> length y2 = length x1 ->
  vsubR (vaddR (vscaleR a x1) (vscaleR b x2)) (vaddR (vscaleR a y1) (vscaleR b y2)) =
  vaddR (vscaleR a (vsubR x1 y1)) (vscaleR b (vsubR x2 y2)).
Proof.
  intros L2 M1 M2. rewrite vsub_vadd_vadd, !vscale_vsub; rewrite ?length_vscale; auto.
Qed.

Definition nrm (v : list R) : R := sqrt (dotR v v).

Lemma nrm_vnorm v : nrm v = vnorm RN v.
Proof. reflexivity. Qed.

Lemma nrm_nonneg v : 0 <= nrm v.
Proof. apply sqrt_pos. Qed.

Lemma nrm_sq v : nrm v * nrm v = dotR v v.
Proof. apply sqrt_sqrt. apply dot_self_nonneg. Qed.

Lemma nrm_triangle a b : length a = length b -> nrm (vaddR a b) <= nrm a + nrm b.
Proof. exact (norm_triangle a b). Qed.

Lemma nrm_le_of_sq v K : 0 <= K -> dotR v v <= K * K -> nrm v <= K.
Proof.
  intros HK H. unfold nrm. rewrite <- (sqrt_square K) by exact HK. apply sqrt_le_1_alt. exact H.
Qed.

Lemma nrm_vscale k v : 0 <= k -> nrm (vscaleR k v) = k * nrm v.
Proof. exact (vnorm_vscale k v). Qed.

Lemma nrm_vsub_comm a b : length a = length b -> nrm (vsubR a b) = nrm (vsubR b a).
Proof.
  intros Hl. unfold nrm. f_equal. rewrite !dot_vsub_self by congruence. rewrite (dot_comm b a). ring.
Qed.

Lemma nrm_dist_triangle x y z : length x = length y -> length x = length z ->
  nrm (vsubR x z) <= nrm (vsubR x y) + nrm (vsubR y z).
Proof.
  intros H1 H2. rewrite (vsub_mid x y z H1 H2). apply nrm_triangle.
  rewrite !length_vsub by congruence. exact H1.
Qed.

Lemma nrm_vzero k : nrm (vzeroR k) = 0.
Proof. unfold nrm. rewrite dot_vzero_l. apply sqrt_0. Qed.

Lemma nrm_vsum_rows_diff n (f g : nat -> list R) l : wfmat n (map f l) -> wfmat n (map g l) ->
  nrm (vsubR (vsum_rows RN n (map f l)) (vsum_rows RN n (map g l))) <=
  vsumR (map (fun i => nrm (vsubR (f i) (g i))) l).
Proof.
  induction l as [|i l IH]; cbn [map vsum_rows]; intros Hf Hg.
  - rewrite vsub_self_zero, nrm_vzero. cbn. lra.
  - apply Forall_cons_iff in Hf, Hg. destruct Hf as [Hf HF], Hg as [Hg HG].
    rewrite vsum_cons. specialize (IH HF HG). apply length_vsum_rows in HF, HG.
    rewrite vsub_vadd_vadd by congruence.
    eapply Rle_trans; [apply nrm_triangle; rewrite !length_vsub by congruence; congruence|]. lra.
Qed.

Lemma nrm_lincomb a b u v : 0 <= a -> 0 <= b -> length u = length v ->
  nrm (vaddR (vscaleR a u) (vscaleR b v)) <= a * nrm u + b * nrm v.
Proof.
  intros Ha Hb Hl. rewrite <- !nrm_vscale by assumption. apply nrm_triangle.
  rewrite !length_vscale. exact Hl.
Qed.

Lemma nrm_comb_defect n a b x1 x2 y1 y2 y12 : 0 <= a -> 0 <= b ->
  length x1 = n -> length x2 = n -> length y1 = n -> length y2 = n -> length y12 = n ->
  nrm (vsubR y12 (vaddR (vscaleR a y1) (vscaleR b y2))) <=
  nrm (vsubR y12 (vaddR (vscaleR a x1) (vscaleR b x2))) +
  a * nrm (vsubR y1 x1) + b * nrm (vsubR y2 x2).
Proof.
  intros Ha Hb L1 L2 M1 M2 M12. rewrite <- L1 in L2, M1, M2, M12.
  set (x12 := vaddR (vscaleR a x1) (vscaleR b x2)).
  assert (Lx12 : length x12 = length x1) by (apply length_lincomb; auto).
  eapply Rle_trans.
  { apply (nrm_dist_triangle y12 x12); rewrite M12; [auto|].
    rewrite length_lincomb; congruence. }
  unfold x12. rewrite lincomb_vsub by assumption.
  rewrite (nrm_vsub_comm y1 x1), (nrm_vsub_comm y2 x2) by congruence.
  assert (T := nrm_lincomb a b (vsubR x1 y1) (vsubR x2 y2) Ha Hb).
  rewrite !length_vsub in T by congruence. specialize (T (eq_sym L2)). lra.
Qed.

Lemma dot_quarter x y : length x = length y -> dotR x (vsubR y x) <= dotR y y / 4.
Proof.
  intros Hl. rewrite dot_vsub_r by congruence.
  pose proof (dot_self_nonneg (vsubR x (vscaleR (1/2) y))) as H.
  rewrite dot_vsub_self in H by (rewrite length_vscale; exact Hl).
  rewrite dot_vscale_l, !dot_vscale_r in H. lra.
Qed.

(* abstract form: Ge is any symmetric matrix whose bilinear form is that of G plus e <.,.> *)
Lemma qp_perturbation_core m G Ge e u w0 we : symm m G -> symm m Ge ->
  (forall x y, length x = m -> length y = m -> bil Ge x y = bil G x y + e * dotR x y) ->
  0 <= e ->
  is_min m G u w0 -> is_min m Ge u we ->
  qf G (vsubR we w0) <= e * dotR we (vsubR w0 we) /\
  e * dotR we (vsubR w0 we) <= e * (dotR w0 w0) / 4.
Proof.
  intros HsG HsGe Hbil He H0 H1. split.
  - apply (is_min_diff_perturbed m G Ge e u); assumption.
  - pose proof H0 as (Hl0 & _). pose proof H1 as (Hl1 & _).
    pose proof (dot_quarter we w0 ltac:(congruence)) as Q.
    pose proof (Rmult_le_compat_l e _ _ He Q). lra.
Qed.

Lemma bil_regularize m G e x y : length G = m -> wfmat m G -> length x = m -> length y = m ->
  bil (regularize RN G e) x y = bil G x y + e * dotR x y.
Proof.
  intros HG Hwf Hx Hy. unfold bil. rewrite mv_regularize by (rewrite Hy; assumption).
  rewrite dot_vadd_r by (rewrite length_mv, length_vscale; congruence).
  rewrite dot_vscale_r. reflexivity.
Qed.

Theorem qp_reg_perturbation m G e u w0 we :
  length G = m -> wfmat m G -> symm m G -> 0 <= e ->
  is_min m G u w0 -> is_min m (regularize RN G e) u we ->
  qf G (vsubR we w0) <= e * dotR we (vsubR w0 we) /\
  e * dotR we (vsubR w0 we) <= e * (dotR w0 w0) / 4.
Proof.
  intros HG Hwf Hs He H0 H1.
  apply (qp_perturbation_core m G (regularize RN G e) e u w0 we Hs); try assumption.
  - intros x y Hx Hy. rewrite !(bil_regularize m) by assumption.
    rewrite (Hs x y Hx Hy), (dot_comm x y). reflexivity.
  - intros x y Hx Hy. apply (bil_regularize m); assumption.
Qed.

Section RegDefect.
Variables (n : nat) (J : list (list R)) (s ne re : R).
Hypothesis HJ : wfmat n J.
Hypothesis Hs : 0 < s.
Hypothesis Hne : nltb RN s ne = false.
Hypothesis Hre : 0 <= re.
Let m := length J.
Let M0 := reg_norm_gramian RN (gramR J) s ne 0.
Let Mre := reg_norm_gramian RN (gramR J) s ne re.

(* squared form, on the weights: w0, we ANY minimisers of the two problems *)
Lemma proj_reg_defect_sq u w0 we : is_min m M0 u w0 -> is_min m Mre u we ->
  let d := vsubR (vmR n we J) (vmR n w0 J) in
  dotR d d <= re * (s * s) * dotR w0 w0 / 4.
Proof.
  intros H0 H1 d.
  pose proof H0 as (Hl0 & _). pose proof H1 as (Hl1 & _).
  destruct (qp_perturbation_core m M0 Mre re u w0 we) as [A B]; try assumption.
  - apply (symm_M n); assumption.
  - apply (symm_M n); assumption.
  - intros x y Hx Hy. unfold M0, Mre. rewrite !(bil_M J s ne _ Hne) by assumption. ring.
  - (* on we - w0:  qf M0 = qf (gram J) / s^2  and  qf (gram J) = |d|^2 *)
    assert (Hdd : length (vsubR we w0) = m) by (rewrite length_vsub; congruence).
    unfold qf, M0 in A. rewrite (bil_M J s ne 0 Hne) in A by exact Hdd.
    fold (qf (gramR J) (vsubR we w0)) in A.
    rewrite (qf_gram n), (vm_vsub n) in A by (assumption || congruence). fold d in A.
    apply (Rmult_le_reg_l (1 / (s * s))); [exact (c_pos s Hs)|].
    replace (1 / (s * s) * (re * (s * s) * dotR w0 w0 / 4)) with (re * dotR w0 w0 / 4)
      by (field; lra).
    lra.
Qed.

Lemma proj_reg_defect_nrm u w0 we : is_min m M0 u w0 -> is_min m Mre u we ->
  nrm (vsubR (vmR n we J) (vmR n w0 J)) <= sqrt re * s / 2 * nrm w0.
Proof.
  intros H0 H1. pose proof (proj_reg_defect_sq u w0 we H0 H1) as H. cbv zeta in H.
  pose proof (sqrt_pos re) as Hq. pose proof (nrm_nonneg w0) as Hw.
  apply nrm_le_of_sq.
  - apply Rmult_le_pos; [|exact Hw]. apply Rmult_le_pos; [|lra]. apply Rmult_le_pos; lra.
  - replace (sqrt re * s / 2 * nrm w0 * (sqrt re * s / 2 * nrm w0))
      with ((sqrt re * sqrt re) * (s * s) * (nrm w0 * nrm w0) / 4) by field.
    rewrite sqrt_sqrt by exact Hre. rewrite nrm_sq. exact H.
Qed.
End RegDefect.

Lemma agg_dualproj_unfold J qp pref s ne re u :
  pref_weights pref (mean_weights RN (length J)) (length J) = Ok u ->
  agg_dualproj RN qp pref s ne re J =
  Ok (vmR (ncols J) (qp (reg_norm_gramian RN (gramR J) s ne re) u) J).
Proof. intros Hpw. unfold agg_dualproj. rewrite Hpw. reflexivity. Qed.

Theorem dualproj_reg_defect n J qp pref s ne re u :
  wfmat n J -> 0 < s -> nltb RN s ne = false -> 0 <= re ->
  pref_weights pref (mean_weights RN (length J)) (length J) = Ok u ->
  let m := length J in
  let M0 := reg_norm_gramian RN (gramR J) s ne 0 in
  let Mre := reg_norm_gramian RN (gramR J) s ne re in
  is_min m M0 u (qp M0 u) -> is_min m Mre u (qp Mre u) ->
  exists y0 yre,
    agg_dualproj RN qp pref s ne 0 J = Ok y0 /\
    agg_dualproj RN qp pref s ne re J = Ok yre /\
    dotR (vsubR yre y0) (vsubR yre y0) <= re * (s * s) * dotR (qp M0 u) (qp M0 u) / 4 /\
    nrm (vsubR yre y0) <= sqrt re * s / 2 * nrm (qp M0 u).
Proof.
  intros HJ Hs Hne Hre Hpw m M0 Mre H0 H1.
  pose proof (wfmat_ncols n J HJ) as HJ'.
  exists (vmR (ncols J) (qp M0 u) J), (vmR (ncols J) (qp Mre u) J).
  split; [apply agg_dualproj_unfold; exact Hpw|].
  split; [apply agg_dualproj_unfold; exact Hpw|].
  split.
  - apply (proj_reg_defect_sq (ncols J) J s ne re HJ' Hs Hne Hre u); assumption.
  - apply (proj_reg_defect_nrm (ncols J) J s ne re HJ' Hs Hne Hre u); assumption.
Qed.

(* contract of the QP oracle on the m one-hot problems of UPGrad WITH regularisation re
   (qp_unreg_ok is the instance re = 0) *)
Definition qp_reg_ok (qp : list (list R) -> list R -> list R) (J : list (list R)) (s ne re : R)
           (u : list R) : Prop :=
  let m := length J in
  let M := reg_norm_gramian RN (gramR J) s ne re in
  0 < s /\ nltb RN s ne = false /\
  forall i, (i < m)%nat ->
    is_min m M (onehotR m i (vget RN u i)) (qp M (onehotR m i (vget RN u i))).

Lemma qp_reg_ok_0 qp J s ne u : qp_reg_ok qp J s ne 0 u <-> qp_unreg_ok qp J s ne u.
Proof. unfold qp_reg_ok, qp_unreg_ok. reflexivity. Qed.

(* sum_i | W_i |  for the UNREGULARISED answers of the oracle: independent of reg_eps *)
Definition upgrad_Wsum (qp : list (list R) -> list R -> list R) (J : list (list R)) (s ne : R)
           (u : list R) : R :=
  vsumR (map (fun i => nrm (upgrad_W qp J s ne u i)) (seq 0 (length J))).

Lemma upgrad_Wsum_nonneg qp J s ne u : 0 <= upgrad_Wsum qp J s ne u.
Proof. unfold upgrad_Wsum. apply vsum_map_nonneg. intros i _. apply nrm_nonneg. Qed.

(* qp0 answers the unregularised problems (reference), qp the regularised ones
   (take qp0 = qp for a single oracle) *)
Theorem upgrad_reg_defect n J qp0 qp pref s ne re u :
  wfmat n J -> J <> [] -> 0 <= re ->
  pref_weights pref (mean_weights RN (length J)) (length J) = Ok u ->
  qp_unreg_ok qp0 J s ne u -> qp_reg_ok qp J s ne re u ->
  exists y0 yre,
    agg_upgrad RN qp0 pref s ne 0 J = Ok y0 /\
    agg_upgrad RN qp pref s ne re J = Ok yre /\
    nrm (vsubR yre y0) <= sqrt re * s / 2 * upgrad_Wsum qp0 J s ne u.
Proof.
  intros HJ HJne Hre Hpw H0 H1.
  pose proof H0 as (Hs & Hne & Hq0). pose proof H1 as (_ & _ & Hq1).
  cbv zeta in Hq0, Hq1.
  set (m := length J) in *.
  set (F0 := fun i => upgrad_W qp0 J s ne u i).
  set (F1 := fun i => qp (reg_norm_gramian RN (gramR J) s ne re) (onehotR m i (vget RN u i))).
  exists (vmR n (vsum_rows RN m (map F0 (seq 0 m))) J), (vmR n (vsum_rows RN m (map F1 (seq 0 m))) J).
  split; [apply (agg_upgrad_unfold n J qp0 pref s ne 0 u HJ HJne Hpw)|].
  split; [apply (agg_upgrad_unfold n J qp pref s ne re u HJ HJne Hpw)|].
  assert (W0 : wfmat m (map F0 (seq 0 m)))
    by (apply wfmat_map; intros i Hi; apply in_seq in Hi; apply (Hq0 i); lia).
  assert (W1 : wfmat m (map F1 (seq 0 m)))
    by (apply wfmat_map; intros i Hi; apply in_seq in Hi; apply (Hq1 i); lia).
  rewrite !(vm_vsum_rows n m) by assumption. rewrite !map_map.
  eapply Rle_trans.
  { apply (nrm_vsum_rows_diff n (fun i => vmR n (F1 i) J) (fun i => vmR n (F0 i) J));
      apply wfmat_map; intros i _; apply length_vm; exact HJ. }
  unfold upgrad_Wsum. fold m. rewrite <- vsum_map_scale.
  apply vsum_map_le. intros i Hi. apply in_seq in Hi.
  apply (proj_reg_defect_nrm n J s ne re HJ Hs Hne Hre (onehotR m i (vget RN u i))).
  - apply (Hq0 i). lia.
  - apply (Hq1 i). lia.
Qed.

Lemma agg_upgrad_length n J qp pref s ne re y : wfmat n J -> J <> [] ->
  agg_upgrad RN qp pref s ne re J = Ok y -> length y = n.
Proof.
  intros HJ HJne H. rewrite gf_upgrad in H.
  rewrite (weighted_shape n J _ y HJ HJne H). apply (ncols_wf n); assumption.
Qed.

(* K = (s12 W12 + a s1 W1 + b s2 W2) / 2  does not depend on reg_eps *)
Definition scaling_defect_const qp0 J s1 s2 s12 ne a b c1 c2 u : R :=
  let c12 := vaddR (vscaleR a c1) (vscaleR b c2) in
  (s12 * upgrad_Wsum qp0 (rscale c12 J) s12 ne u
   + a * (s1 * upgrad_Wsum qp0 (rscale c1 J) s1 ne u)
   + b * (s2 * upgrad_Wsum qp0 (rscale c2 J) s2 ne u)) / 2.

Lemma scaling_defect_const_nonneg qp0 J s1 s2 s12 ne a b c1 c2 u :
  0 <= s1 -> 0 <= s2 -> 0 <= s12 -> 0 <= a -> 0 <= b ->
  0 <= scaling_defect_const qp0 J s1 s2 s12 ne a b c1 c2 u.
Proof.
  intros H1 H2 H12 Ha Hb. unfold scaling_defect_const. cbv zeta.
  apply Rle_mult_inv_pos; [|lra].
  repeat apply Rplus_le_le_0_compat; repeat (apply Rmult_le_pos; try assumption);
    apply upgrad_Wsum_nonneg.
Qed.

(* The setting of C09 for UPGrad: positive scalings c1, c2, c12 = a c1 + b c2 of the rows of J, and
   an oracle qp0 that answers the unregularised problems of J and of the three scaled matrices, each
   with its own sigma_max (it is the reference, and fixes the constants W).  qp is the oracle the
   model runs with at reg_eps = re. *)
Section ScalingDefect.
Variables (n : nat) (J : list (list R)) (qp0 : list (list R) -> list R -> list R)
          (pref : option (list R)) (s s1 s2 s12 ne a b : R) (c1 c2 u : list R).
Hypotheses (HJ : wfmat n J) (HJne : J <> [])
           (H1 : length c1 = length J) (H2 : length c2 = length J)
           (P1 : allpos c1) (P2 : allpos c2) (Ha : 0 < a) (Hb : 0 < b)
           (Hpw : pref_weights pref (mean_weights RN (length J)) (length J) = Ok u).

(* upgrad_reg_defect on diag(c) J, relative to a given unregularised output x *)
Lemma upgrad_reg_defect_rscale qp re c sc x : length c = length J -> 0 <= re ->
  qp_unreg_ok qp0 (rscale c J) sc ne u -> qp_reg_ok qp (rscale c J) sc ne re u ->
  agg_upgrad RN qp0 pref sc ne 0 (rscale c J) = Ok x ->
  exists y, agg_upgrad RN qp pref sc ne re (rscale c J) = Ok y /\
            length x = n /\ length y = n /\
            nrm (vsubR y x) <= sqrt re * sc / 2 * upgrad_Wsum qp0 (rscale c J) sc ne u.
Proof using HJ HJne Hpw.
  intros Hc Hre Hu0 Hu1 Ex.
  assert (HJc : wfmat n (rscale c J)) by (apply wfmat_rscale; exact HJ).
  assert (HJcne : rscale c J <> []) by (apply rscale_nonempty; assumption).
  pose proof Hpw as Hpc. rewrite <- (length_rscale c J Hc) in Hpc.
  destruct (upgrad_reg_defect n (rscale c J) qp0 qp pref sc ne re u HJc HJcne Hre Hpc Hu0 Hu1)
    as (y0 & y & Ey0 & Ey & Hy).
  rewrite Ex in Ey0. injection Ey0 as <-.
  exists y. split; [exact Ey|].
  split; [apply (agg_upgrad_length n _ _ _ _ _ _ _ HJc HJcne Ex)|].
  split; [apply (agg_upgrad_length n _ _ _ _ _ _ _ HJc HJcne Ey)|]. exact Hy.
Qed.

Let c12 := vaddR (vscaleR a c1) (vscaleR b c2).
Hypotheses (Hq : qp_unreg_ok qp0 J s ne u)
           (Hq1 : qp_unreg_ok qp0 (rscale c1 J) s1 ne u) (Hq2 : qp_unreg_ok qp0 (rscale c2 J) s2 ne u)
           (Hq12 : qp_unreg_ok qp0 (rscale c12 J) s12 ne u).

Theorem upgrad_scaling_defect qp re : 0 <= re ->
  qp_reg_ok qp (rscale c1 J) s1 ne re u -> qp_reg_ok qp (rscale c2 J) s2 ne re u ->
  qp_reg_ok qp (rscale c12 J) s12 ne re u ->
  exists y1 y2 y12,
    agg_upgrad RN qp pref s1 ne re (rscale c1 J) = Ok y1 /\
    agg_upgrad RN qp pref s2 ne re (rscale c2 J) = Ok y2 /\
    agg_upgrad RN qp pref s12 ne re (rscale c12 J) = Ok y12 /\
    nrm (vsubR y12 (vaddR (vscaleR a y1) (vscaleR b y2))) <=
    sqrt re / 2 * (s12 * upgrad_Wsum qp0 (rscale c12 J) s12 ne u
                   + a * (s1 * upgrad_Wsum qp0 (rscale c1 J) s1 ne u)
                   + b * (s2 * upgrad_Wsum qp0 (rscale c2 J) s2 ne u)).
Proof using All.
  intros Hre Hr1 Hr2 Hr12.
  assert (Hl12 : length c12 = length J) by (unfold c12; rewrite length_lincomb; congruence).
  destruct (agg_upgrad_unreg_linear_under_scaling n J qp0 pref s s1 s2 s12 ne a b c1 c2 u
              HJ HJne H1 H2 P1 P2 Ha Hb Hpw Hq Hq1 Hq2 Hq12) as (x1 & x2 & E1 & E2 & E12).
  fold c12 in E12.
  destruct (upgrad_reg_defect_rscale qp re c1 s1 x1 H1 Hre Hq1 Hr1 E1) as (y1 & Ey1 & Lx1 & Ly1 & B1).
  destruct (upgrad_reg_defect_rscale qp re c2 s2 x2 H2 Hre Hq2 Hr2 E2) as (y2 & Ey2 & Lx2 & Ly2 & B2).
  destruct (upgrad_reg_defect_rscale qp re c12 s12 _ Hl12 Hre Hq12 Hr12 E12)
    as (y12 & Ey12 & _ & Ly12 & B12).
  exists y1, y2, y12. split; [exact Ey1|]. split; [exact Ey2|]. split; [exact Ey12|].
  pose proof (nrm_comb_defect n a b x1 x2 y1 y2 y12 (Rlt_le _ _ Ha) (Rlt_le _ _ Hb)
                Lx1 Lx2 Ly1 Ly2 Ly12) as T.
  apply (Rmult_le_compat_l a _ _ (Rlt_le _ _ Ha)) in B1.
  apply (Rmult_le_compat_l b _ _ (Rlt_le _ _ Hb)) in B2.
  eapply Rle_trans; [exact T|]. clear - B1 B2 B12. unfold Rdiv in *. lra.
Qed.

Theorem upgrad_scaling_defect_small qp re eps : 0 <= re ->
  qp_reg_ok qp (rscale c1 J) s1 ne re u -> qp_reg_ok qp (rscale c2 J) s2 ne re u ->
  qp_reg_ok qp (rscale c12 J) s12 ne re u ->
  let K := scaling_defect_const qp0 J s1 s2 s12 ne a b c1 c2 u in
  0 <= eps -> re * (K * K) < eps * eps ->
  exists y1 y2 y12,
    agg_upgrad RN qp pref s1 ne re (rscale c1 J) = Ok y1 /\
    agg_upgrad RN qp pref s2 ne re (rscale c2 J) = Ok y2 /\
    agg_upgrad RN qp pref s12 ne re (rscale c12 J) = Ok y12 /\
    nrm (vsubR y12 (vaddR (vscaleR a y1) (vscaleR b y2))) < eps.
Proof using All.
  intros Hre Hr1 Hr2 Hr12 K Heps Hsmall.
  destruct (upgrad_scaling_defect qp re Hre Hr1 Hr2 Hr12) as (y1 & y2 & y12 & E1 & E2 & E12 & B).
  exists y1, y2, y12. split; [exact E1|]. split; [exact E2|]. split; [exact E12|].
  assert (HK : 0 <= K).
  { apply scaling_defect_const_nonneg; apply Rlt_le; try assumption;
      [apply Hq1 | apply Hq2 | apply Hq12]. }
  assert (EB : forall q S, q / 2 * S = q * (S / 2)) by (intros; unfold Rdiv; ring).
  rewrite EB in B.
  apply Rle_lt_trans with (1 := B). change (sqrt re * K < eps).
  apply Rsqr_incrst_0; [|apply Rmult_le_pos; [apply sqrt_pos | exact HK] | exact Heps]. unfold Rsqr.
  replace (sqrt re * K * (sqrt re * K)) with ((sqrt re * sqrt re) * (K * K)) by ring.
  rewrite sqrt_sqrt by exact Hre. exact Hsmall.
Qed.

(* for every eps > 0 there is delta > 0, depending only on the unregularised data (through K),
   such that for EVERY reg_eps in [0, delta) and EVERY oracle qp meeting the regularised contract
   at that reg_eps on the three scaled matrices, the linearity defect of UPGrad is below eps *)
Theorem upgrad_scaling_defect_vanishes : forall eps, 0 < eps ->
  exists delta, 0 < delta /\
    forall re qp, 0 <= re < delta ->
      qp_reg_ok qp (rscale c1 J) s1 ne re u -> qp_reg_ok qp (rscale c2 J) s2 ne re u ->
      qp_reg_ok qp (rscale c12 J) s12 ne re u ->
      exists y1 y2 y12,
        agg_upgrad RN qp pref s1 ne re (rscale c1 J) = Ok y1 /\
        agg_upgrad RN qp pref s2 ne re (rscale c2 J) = Ok y2 /\
        agg_upgrad RN qp pref s12 ne re (rscale c12 J) = Ok y12 /\
        nrm (vsubR y12 (vaddR (vscaleR a y1) (vscaleR b y2))) < eps.
Proof using All.
  intros eps Heps.
  set (K := scaling_defect_const qp0 J s1 s2 s12 ne a b c1 c2 u).
  assert (HK2 : 0 < K * K + 1) by (apply Rplus_le_lt_0_compat; [apply Rle_0_sqr | lra]).
  exists (eps * eps / (K * K + 1)). split.
  - apply Rdiv_lt_0_compat; [apply Rmult_lt_0_compat; exact Heps | exact HK2].
  - intros re qp [Hre Hlt] Hr1 Hr2 Hr12.
    apply (upgrad_scaling_defect_small qp re eps Hre Hr1 Hr2 Hr12 (Rlt_le _ _ Heps)).
    fold K.
    apply (Rmult_lt_compat_r (K * K + 1)) in Hlt; [|exact HK2].
    unfold Rdiv in Hlt. rewrite Rmult_assoc, Rinv_l, Rmult_1_r in Hlt by lra.
    rewrite Rmult_plus_distr_l in Hlt. lra.
Qed.
End ScalingDefect.

(* non-vacuity: in the no-conflict case the oracle  qp _ x = x  meets the regularised contract
   for every re >= 0 (on J and, as in upgrad_unreg_hyps_satisfiable, on every diag(c) J) *)
Lemma qp_reg_ok_no_conflict n J s ne re u : wfmat n J -> 0 < s -> nltb RN s ne = false -> 0 <= re ->
  (forall r r', In r J -> In r' J -> 0 <= dotR r r') -> nonneg u ->
  qp_reg_ok (fun _ x => x) J s ne re u.
Proof.
  intros HJ Hs Hne Hre Hnc Hu. split; [exact Hs|]. split; [exact Hne|]. intros i _.
  exact (no_conflict_min_onehot n J s ne re u i HJ Hs Hne Hre Hnc Hu).
Qed.

Lemma qp_reg_ok_no_conflict_rscale n J c s' ne re u : wfmat n J -> 0 < s' ->
  nltb RN s' ne = false -> 0 <= re -> allpos c ->
  (forall r r', In r J -> In r' J -> 0 <= dotR r r') -> nonneg u ->
  qp_reg_ok (fun _ x => x) (rscale c J) s' ne re u.
Proof.
  intros HJ Hs' Hne' Hre Hc Hnc Hu.
  apply (qp_reg_ok_no_conflict n); auto using wfmat_rscale.
  apply no_conflict_rscale; assumption.
Qed.

Print Assumptions qp_reg_perturbation.
Print Assumptions dualproj_reg_defect.
Print Assumptions upgrad_reg_defect.
Print Assumptions upgrad_scaling_defect.
Print Assumptions upgrad_scaling_defect_small.
Print Assumptions upgrad_scaling_defect_vanishes.
Print Assumptions qp_reg_ok_no_conflict_rscale.
