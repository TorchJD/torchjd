(* Property C07 at the ENTRY POINTS: the number and the sizes of the engine runs ("sweeps")
   issued by backward / mtl_backward.  By the engine footprints of C13Proofs.v an accepted call
   adds to the log the sweeps of the chunk plan [chunk_plan m k retain] with

     backward      m = total_rows P tensors, the number of scalars of the tensors (the rows of
                   Diagonalize's output)
     mtl_backward  m = length losses, the number of dictionaries stacked (the call checked
                   length losses = length tasks), below them one unbatched single-row sweep per task

   Only the row COUNT of the dictionaries matters, not their values, so everything is generic in
   the number type. *)
From Coq Require Import List Bool Arith.
From TJ Require Import Num Chunk Autojac.
From TJ.proofs Require Import ChunkProofs EntrySpec C20Proofs C13Proofs.
Import ListNotations.

Definition total_rows {T} (P : prog T) (ts : list tid) : nat :=
  fold_right Nat.add 0 (map (pnumel P) ts).

Definition plan_log_spec (outs ins : list tid) (m : nat) (k : option nat) (new : list sweep) : Prop :=
  length new = ceil_div m (max_chunk m k) /\
  fold_right Nat.add 0 (map sw_rows new) = m /\
  (forall w, In w new ->
     sw_outs w = outs /\ sw_ins w = ins /\
     1 <= sw_rows w /\ sw_rows w <= max_chunk m k /\
     sw_batched w = negb (sw_rows w =? 1)).

Lemma fold_add_rev (l : list nat) : fold_right Nat.add 0 (rev l) = fold_right Nat.add 0 l.
Proof.
  change (list_sum (rev l) = list_sum l).
  induction l as [|x l IH]; [reflexivity|].
  cbn [rev]. rewrite list_sum_app, IH. cbn [list_sum fold_right]. rewrite Nat.add_0_r.
  apply Nat.add_comm.
Qed.

Lemma plan_log_spec_holds outs ins m k retain : valid_chunk k = true -> 1 <= m ->
  plan_log_spec outs ins m k (rev (plan_sweeps outs ins (chunk_plan m k retain))).
Proof.
  intros Hk Hm. unfold plan_log_spec. split; [|split].
  - rewrite rev_length, plan_sweeps_length. apply plan_count; assumption.
  - rewrite map_rev, fold_add_rev, plan_sweeps_rows. apply plan_rows_total; assumption.
  - intros w Hw. apply in_rev_plan_sweeps in Hw. destruct Hw as (c & Hc & ->).
    destruct (plan_sizes m k retain c Hk Hm Hc) as (H1 & H2 & _ & Hb).
    exact (conj eq_refl (conj eq_refl (conj H1 (conj H2 Hb)))).
Qed.

Lemma plan_log_sequential outs ins m k retain w : valid_chunk k = true -> 1 <= m ->
  k = Some 1 \/ m = 1 ->
  In w (rev (plan_sweeps outs ins (chunk_plan m k retain))) -> sw_batched w = false.
Proof.
  intros Hk Hm Hseq Hw. apply in_rev_plan_sweeps in Hw. destruct Hw as (c & Hc & ->).
  cbn [sw_batched]. destruct Hseq as [-> | ->].
  - exact (proj1 (plan_sequential_k1 m retain c Hm Hc)).
  - exact (plan_single_row k retain c Hk Hc).
Qed.

Section SweepCount.
Context {T : Type} (N : Num T) (P : prog T) (A : list (list T) -> res (list T)).

Definition new_sweeps (s s' : @store T) : list sweep :=
  firstn (length (s_log s') - length (s_log s)) (s_log s').

Lemma new_sweeps_eq : forall (s s' : @store T) new,
  s_log s' = new ++ s_log s -> new_sweeps s s' = new.
Proof.
  intros s s' new E. unfold new_sweeps. rewrite E, app_length, Nat.add_sub.
  rewrite firstn_app, firstn_all, Nat.sub_diag, firstn_O. apply app_nil_r.
Qed.

(* THE ROW COUNT OF backward: the sweeps are those of the chunk plan of total_rows rows.
   (No hypothesis on total_rows is needed for this identity.) *)
Theorem backward_sweeps_exact : forall tensors ord k retain s d' s',
  ord <> [] ->
  backward_model N P A tensors ord k retain s = (Ok d', s') ->
  s_log s' = rev (plan_sweeps tensors ord (chunk_plan (total_rows P tensors) k retain)) ++ s_log s.
Proof.
  intros tensors ord k retain s d' s' Hord H.
  exact (proj2 (proj2 (backward_run_engine N P A _ _ _ _ _ _ _ Hord H))).
Qed.

Lemma backward_ok_valid_chunk : forall tensors ord k retain s d' s',
  backward_model N P A tensors ord k retain s = (Ok d', s') -> valid_chunk k = true.
Proof.
  intros tensors ord k retain s d' s' H.
  exact (proj1 (proj1 (backward_args_ok_spec _ _ _ _) (proj1 (backward_ok_inv N P A _ _ _ _ _ _ _ H)))).
Qed.

(* C07 for backward, all clauses at once: exactly ceil(m / max_chunk) sweeps, all from [tensors]
   to [ord], each of 1..max_chunk rows, m rows in total, batched iff more than one row *)
Theorem backward_sweeps_spec : forall tensors ord k retain s d' s',
  ord <> [] -> 1 <= total_rows P tensors ->
  backward_model N P A tensors ord k retain s = (Ok d', s') ->
  plan_log_spec tensors ord (total_rows P tensors) k (new_sweeps s s').
Proof.
  intros tensors ord k retain s d' s' Hord Hm H.
  rewrite (new_sweeps_eq _ _ _ (backward_sweeps_exact _ _ _ _ _ _ _ Hord H)).
  exact (plan_log_spec_holds _ _ _ _ _ (backward_ok_valid_chunk _ _ _ _ _ _ _ H) Hm).
Qed.

Corollary backward_sweep_count : forall tensors ord k retain s d' s',
  ord <> [] -> 1 <= total_rows P tensors ->
  backward_model N P A tensors ord k retain s = (Ok d', s') ->
  length (s_log s') =
  length (s_log s) + ceil_div (total_rows P tensors) (max_chunk (total_rows P tensors) k).
Proof.
  intros tensors ord k retain s d' s' Hord Hm H.
  pose proof (backward_ok_valid_chunk _ _ _ _ _ _ _ H) as Hk.
  rewrite (backward_sweeps_exact _ _ _ _ _ _ _ Hord H), app_length.
  rewrite (proj1 (plan_log_spec_holds _ _ _ _ _ Hk Hm)). apply Nat.add_comm.
Qed.

Corollary backward_sequential : forall tensors ord k retain s d' s',
  ord <> [] -> 1 <= total_rows P tensors ->
  backward_model N P A tensors ord k retain s = (Ok d', s') ->
  k = Some 1 \/ total_rows P tensors = 1 ->
  forall w, In w (new_sweeps s s') -> sw_batched w = false.
Proof.
  intros tensors ord k retain s d' s' Hord Hm H Hseq w Hw.
  rewrite (new_sweeps_eq _ _ _ (backward_sweeps_exact _ _ _ _ _ _ _ Hord H)) in Hw.
  exact (plan_log_sequential _ _ _ _ _ _ (backward_ok_valid_chunk _ _ _ _ _ _ _ H) Hm Hseq Hw).
Qed.

Definition task_sweep (features : list tid) (retain : bool) (pl : list tid * tid) : sweep :=
  mkSweep [snd pl] (fst pl ++ features) 1 false retain.

Lemma in_rev_task_sweeps features retain pls w :
  In w (rev (map (task_sweep features retain) pls)) ->
  sw_rows w = 1 /\ sw_batched w = false /\ sw_retain w = retain.
Proof.
  intros Hw. apply in_rev in Hw. apply in_map_iff in Hw. destruct Hw as (pl & <- & _).
  repeat split.
Qed.

(* THE ROW COUNT OF mtl_backward: one unbatched single-row sweep per task, in task order, then the
   sweeps of the chunk plan of  length losses  rows *)
Theorem mtl_sweeps_exact : forall losses features tasks shared k retain s d' s',
  shared <> [] ->
  mtl_backward_model N P A losses features tasks shared k retain s = (Ok d', s') ->
  s_log s' = rev (plan_sweeps features shared (chunk_plan (length losses) k retain))
             ++ rev (map (task_sweep features retain) (combine tasks losses))
             ++ s_log s.
Proof.
  intros losses features tasks shared k retain s d' s' Hsh H.
  exact (proj2 (proj2 (mtl_run_engine N P A _ _ _ _ _ _ _ _ _ Hsh H))).
Qed.

Lemma mtl_ok_facts : forall losses features tasks shared k retain s d' s',
  mtl_backward_model N P A losses features tasks shared k retain s = (Ok d', s') ->
  valid_chunk k = true /\ 1 <= length losses /\ length (combine tasks losses) = length losses.
Proof.
  intros losses features tasks shared k retain s d' s' H.
  destruct (mtl_args_ok_spec P _ _ _ _ _ _ (proj1 (mtl_ok_inv N P A _ _ _ _ _ _ _ _ _ H)))
    as (Hk & _ & _ & _ & Hnl & Hlen & _).
  split; [exact Hk|]. split.
  - destruct losses; [destruct (Hnl eq_refl) | apply le_n_S, Nat.le_0_l].
  - rewrite combine_length, <- Hlen. apply Nat.min_id.
Qed.

Corollary mtl_sweep_count : forall losses features tasks shared k retain s d' s',
  shared <> [] ->
  mtl_backward_model N P A losses features tasks shared k retain s = (Ok d', s') ->
  length (s_log s') =
  length (s_log s) + length losses + ceil_div (length losses) (max_chunk (length losses) k).
Proof.
  intros losses features tasks shared k retain s d' s' Hsh H.
  destruct (mtl_ok_facts _ _ _ _ _ _ _ _ _ H) as (Hk & Hm & Hc).
  rewrite (mtl_sweeps_exact _ _ _ _ _ _ _ _ _ Hsh H), !app_length.
  rewrite (proj1 (plan_log_spec_holds _ _ _ _ _ Hk Hm)), rev_length, map_length, Hc.
  rewrite (Nat.add_comm (length losses)). apply Nat.add_comm.
Qed.

(* the trunk's sweeps are the newest ones and obey C07 with m = number of losses; below them,
   one unbatched single-row sweep per task *)
Theorem mtl_sweeps_spec : forall losses features tasks shared k retain s d' s',
  shared <> [] ->
  mtl_backward_model N P A losses features tasks shared k retain s = (Ok d', s') ->
  exists trunk heads,
    s_log s' = trunk ++ heads ++ s_log s /\
    plan_log_spec features shared (length losses) k trunk /\
    heads = rev (map (task_sweep features retain) (combine tasks losses)) /\
    length heads = length losses /\
    (forall w, In w heads -> sw_rows w = 1 /\ sw_batched w = false /\ sw_retain w = retain).
Proof.
  intros losses features tasks shared k retain s d' s' Hsh H.
  destruct (mtl_ok_facts _ _ _ _ _ _ _ _ _ H) as (Hk & Hm & Hc).
  eexists _, _. split; [exact (mtl_sweeps_exact _ _ _ _ _ _ _ _ _ Hsh H)|].
  split; [apply plan_log_spec_holds; assumption|].
  split; [reflexivity|]. split.
  - rewrite rev_length, map_length. exact Hc.
  - exact (in_rev_task_sweeps features retain _).
Qed.

Corollary mtl_sequential : forall losses features tasks shared k retain s d' s',
  shared <> [] ->
  mtl_backward_model N P A losses features tasks shared k retain s = (Ok d', s') ->
  k = Some 1 \/ length losses = 1 ->
  forall w, In w (new_sweeps s s') -> sw_batched w = false.
Proof.
  intros losses features tasks shared k retain s d' s' Hsh H Hseq w Hw.
  destruct (mtl_ok_facts _ _ _ _ _ _ _ _ _ H) as (Hk & Hm & _).
  pose proof (mtl_sweeps_exact _ _ _ _ _ _ _ _ _ Hsh H) as HL.
  rewrite app_assoc in HL. rewrite (new_sweeps_eq _ _ _ HL) in Hw.
  apply in_app_or in Hw. destruct Hw as [Hw|Hw].
  - exact (plan_log_sequential _ _ _ _ _ _ Hk Hm Hseq Hw).
  - exact (proj1 (proj2 (in_rev_task_sweeps _ _ _ _ Hw))).
Qed.

End SweepCount.

Print Assumptions backward_sweeps_exact.
Print Assumptions backward_sweeps_spec.
Print Assumptions backward_sweep_count.
Print Assumptions backward_sequential.
Print Assumptions mtl_sweeps_exact.
Print Assumptions mtl_sweeps_spec.
Print Assumptions mtl_sweep_count.
Print Assumptions mtl_sequential.
