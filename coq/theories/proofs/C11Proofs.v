(* Validation rules, output shape, and positive homogeneity A(tJ) = t A(J): of every fixed weighting,
   of every weighting that sees J through a function of the Gramian which the scaling leaves alone,
   of MGDA, TrimmedMean and IMTL-G; IMTL-G with the absolute guard of imtlg_weights_v0 is not
   homogeneous. *)
From Coq Require Import Reals List Lia Lra.
From TJ Require Import Num Linalg NumR Agg.
From TJ.proofs Require Import LinalgR C03Proofs C18Proofs C08Proofs C16Proofs C10Proofs.
Import ListNotations.
Local Open Scope R_scope.

Lemma check_matrix_iff ndim finite :
  check_matrix ndim finite = Ok tt <-> ndim = 2%nat /\ finite = true.
Proof.
  unfold check_matrix. destruct (Nat.eqb_spec ndim 2); cbn [negb]; destruct finite; cbn [negb];
    split; try (intros [? ?]); intros; try discriminate; try contradiction; auto.
Qed.

Lemma check_matrix_err ndim finite :
  check_matrix ndim finite <> Ok tt -> check_matrix ndim finite = Err ValueError.
Proof. unfold check_matrix. destruct (ndim =? 2)%nat, finite; cbn; congruence. Qed.

Lemma wfmat_mscale n t J : wfmat n J -> wfmat n (mscaleR t J).
Proof. apply wfmat_map_rows. apply length_vscale. Qed.

Lemma constant_weights_iff (w : list R) m :
  (constant_weights w m = Ok w <-> length w = m) /\
  (length w <> m -> constant_weights w m = Err ValueError).
Proof.
  split; [split; [|apply constant_weights_ok] | apply constant_weights_bad].
  intros H. destruct (Nat.eq_dec (length w) m) as [E|E]; [exact E|].
  rewrite constant_weights_bad in H by exact E. discriminate.
Qed.

Theorem weighted_shape n J r v : wfmat n J -> J <> [] -> weighted RN J r = Ok v -> length v = ncols J.
Proof.
  intros HJ Hne. destruct r as [w|e]; cbn; intros H; [|discriminate]. injection H as <-.
  apply (length_combine n); assumption.
Qed.

Theorem trimmed_mean_shape b J v : agg_trimmed_mean RN b J = Ok v -> length v = ncols J.
Proof.
  unfold agg_trimmed_mean. destruct (length J <? 1 + 2 * b)%nat; [discriminate|].
  intros H. injection H as <-. rewrite map_length, seq_length. reflexivity.
Qed.

Theorem graddrop_shape leak U J v : length U = ncols J -> agg_graddrop RN leak U J = Ok v ->
  length v = ncols J.
Proof.
  intros HU. unfold agg_graddrop. destruct leak as [l|].
  - destruct (negb (length l =? length J)%nat); [discriminate|]. intros H. injection H as <-.
    rewrite map_length, combine_length, seq_length. lia.
  - intros H. injection H as <-. rewrite map_length, combine_length, seq_length. lia.
Qed.

Theorem combine_mscale t J w : combineR (mscaleR t J) w = vscaleR t (combineR J w).
Proof. unfold combine_rows. rewrite ncols_mscale. apply vm_mscale. Qed.

(* the weighting may depend on parameters that scale with J (sigma_max, eigenvalues): Om' is the
   weighting on the scaled side *)
Theorem homogeneous_meta_scaled t J (Om Om' : list (list R) -> res (list R)) :
  Om' (mscaleR (t * t) (gramR J)) = Om (gramR J) ->
  weighted RN (mscaleR t J) (Om' (gramR (mscaleR t J))) =
  res_map (vscaleR t) (weighted RN J (Om (gramR J))).
Proof.
  intros HO. rewrite gram_mscale, HO. destruct (Om (gramR J)) as [w|e]; cbn; [|reflexivity].
  f_equal. apply combine_mscale.
Qed.

Theorem homogeneous_meta t J (Omega : list (list R) -> res (list R)) :
  Omega (mscaleR (t * t) (gramR J)) = Omega (gramR J) ->
  weighted RN (mscaleR t J) (Omega (gramR (mscaleR t J))) =
  res_map (vscaleR t) (weighted RN J (Omega (gramR J))).
Proof. apply homogeneous_meta_scaled. Qed.

Lemma mgda_step_scale k G alpha : 0 < k ->
  mgda_step RN (mscaleR k G) alpha = mgda_step RN G alpha.
Proof.
  intros Hk. rewrite !mgda_step_eq, mv_mscale, argmin_scale by exact Hk.
  generalize (onehotR (length alpha) (argmin RN (mvR G alpha)) 1). intros e. cbv zeta.
  rewrite !mv_mscale, !dot_vscale_r, fw_gamma_scale by exact Hk. reflexivity.
Qed.

Lemma mgda_loop_scale k iters G eps alpha : 0 < k ->
  mgda_loop RN iters (mscaleR k G) eps alpha = mgda_loop RN iters G eps alpha.
Proof.
  intros Hk. revert alpha. induction iters as [|it IH]; intros alpha; [reflexivity|].
  cbn [mgda_loop]. rewrite mgda_step_scale by exact Hk.
  destruct (mgda_step RN G alpha) as [a' g]. destruct (nltb RN g eps); [reflexivity|apply IH].
Qed.

Theorem mgda_homogeneous t eps iters J : 0 < t ->
  agg_mgda RN eps iters (mscaleR t J) = vscaleR t (agg_mgda RN eps iters J).
Proof.
  intros Ht. unfold agg_mgda. rewrite gram_mscale. unfold mgda_weights.
  rewrite length_mscale, mgda_loop_scale by nra. apply combine_mscale.
Qed.

Lemma insert_scale t x l : 0 < t ->
  insert RN (t * x) (vscaleR t l) = vscaleR t (insert RN x l).
Proof.
  intros Ht. exact (kinsert_map (fun y => y) (Rmult t) (fun a b => Rleb_scale t a b Ht) x l).
Qed.

Lemma isort_scale t l : 0 < t -> isort RN (vscaleR t l) = vscaleR t (isort RN l).
Proof.
  intros Ht. induction l as [|x l IH]; [reflexivity|]. cbn [vscale map isort]. fold (vscaleR t l).
  rewrite IH. rn. apply insert_scale. exact Ht.
Qed.

Lemma trimmed_scale t b col : 0 < t -> trimmed RN b (vscaleR t col) = t * trimmed RN b col.
Proof.
  intros Ht. unfold trimmed. rewrite isort_scale by exact Ht.
  rewrite skipn_vscale, firstn_vscale, vsum_vscale, !length_vscale. rn. unfold Rdiv. ring.
Qed.

Theorem trimmed_mean_homogeneous t b J : 0 < t ->
  agg_trimmed_mean RN b (mscaleR t J) = res_map (vscaleR t) (agg_trimmed_mean RN b J).
Proof.
  intros Ht. unfold agg_trimmed_mean. rewrite length_mscale, ncols_mscale.
  destruct (length J <? 1 + 2 * b)%nat; [reflexivity|]. cbn [res_map]. f_equal.
  unfold vscale. rewrite map_map. apply map_ext. intros j. rewrite column_mscale.
  apply trimmed_scale. exact Ht.
Qed.

Lemma nabs_div x t : 0 < t -> nabs RN (x / t) = nabs RN x / t.
Proof.
  intros Ht. unfold nabs. rn. replace (x / t) with (/ t * x) by (unfold Rdiv; ring).
  rewrite <- (Rltb_scale (/ t) x 0), Rmult_0_r by (apply Rinv_0_lt_compat; exact Ht).
  destruct (Rltb (/ t * x) 0); unfold Rdiv; ring.
Qed.

(* the weights see G through d_i = sqrt G_ii; with pinv(t^2 G) = P / t^2 they do not change *)
Lemma imtlg_weights_scale t P G thr : 0 < t -> 0 < thr ->
  imtlg_weights RN (mscaleR (1 / (t * t)) P) (mscaleR (t * t) G) thr = imtlg_weights RN P G thr.
Proof.
  intros Ht Hthr. rewrite !imtlg_weights_eq. cbv zeta. rewrite length_mscale.
  set (d := map (fun i => sqrt (mget RN G i i)) (seq 0 (length G))). set (v := mvR P d).
  (* d grows by t, v = P d shrinks by t; the guard and v / sum v do not move *)
  assert (Hd : map (fun i => sqrt (mget RN (mscaleR (t * t) G) i i)) (seq 0 (length G)) = vscaleR t d).
  { unfold d, vscale. rewrite map_map. apply map_ext. intros i. rewrite mget_mscale. rn.
    rewrite sqrt_mult_alt by nra. rewrite sqrt_square by lra. reflexivity. }
  assert (Hv : mvR (mscaleR (1 / (t * t)) P) (vscaleR t d) = vscaleR (1 / t) v).
  { rewrite mv_mscale, mv_vscale, vscale_vscale, inv_sq_mul by exact Ht. reflexivity. }
  assert (Hsum : vsumR (vscaleR (1 / t) v) = vsumR v / t) by (rewrite vsum_vscale; unfold Rdiv; ring).
  assert (Hg : nabs RN (vsumR v / t) * vsumR (vscaleR t d) = nabs RN (vsumR v) * vsumR d).
  { rewrite vsum_vscale, nabs_div by exact Ht. apply div_mul_cancel. exact Ht. }
  rewrite Hd, Hv, Hsum, Hg, length_vscale.
  destruct (Rltb (nabs RN (vsumR v) * vsumR d) thr) eqn:E; [reflexivity|].
  (* the guard is false and thr is positive, so the sum is not zero *)
  assert (Hs : vsumR v <> 0).
  { intros Z. apply Rltb_false in E. rewrite Z in E. unfold nabs in E. rn.
    destruct (Rltb 0 0); lra. }
  rewrite vscale_vscale. f_equal. field. split; [exact Hs | lra].
Qed.

Theorem imtlg_homogeneous t P thr J : 0 < t -> 0 < thr ->
  agg_imtlg RN (mscaleR (1 / (t * t)) P) thr (mscaleR t J) = vscaleR t (agg_imtlg RN P thr J).
Proof.
  intros Ht Hthr. unfold agg_imtlg. rewrite gram_mscale, imtlg_weights_scale by assumption.
  apply combine_mscale.
Qed.

Lemma imtlg_v0_1x1 a p thr : 0 <= a ->
  combineR [[a]] (imtlg_weights_v0 RN [[p]] (gramR [[a]]) thr) =
  [if Rltb (nabs RN (p * a)) thr then 0 else p * a / (p * a) * a].
Proof.
  intros Ha. unfold imtlg_weights_v0, gram, combine_rows, ncols.
  cbn [map length seq mget nth dot mv vsum fold_right]. rn.
  rewrite !Rplus_0_r, sqrt_square by exact Ha.
  destruct (Rltb (nabs RN (p * a)) thr); cbn [vzero repeat length vm vscale map vadd]; rn;
    f_equal; lra.
Qed.

(* under the absolute guard of imtlg_weights_v0 homogeneity fails (witness J = [[1]], t = 10^13) *)
Theorem imtlg_v0_not_homogeneous :
  exists (J P P' : list (list R)) (t : R), 0 < t /\
    (* P = pinv(G), P' = pinv(t^2 G) = P / t^2 *)
    P' = mscaleR (1 / (t * t)) P /\
    combineR (mscaleR t J) (imtlg_weights_v0 RN P' (gramR (mscaleR t J)) (1 / 10 ^ 12)) <>
    vscaleR t (combineR J (imtlg_weights_v0 RN P (gramR J) (1 / 10 ^ 12))).
Proof.
  exists [[1]], [[1]], (mscaleR (1 / (10 ^ 13 * 10 ^ 13)) [[1]]), (10 ^ 13).
  split; [apply pow_lt; lra|]. split; [reflexivity|].
  set (T := 10 ^ 13). assert (HT : T = 10000000000000) by (unfold T; lra).
  change (mscaleR T [[1]]) with [[T * 1]]. change (mscaleR (1 / (T * T)) [[1]]) with [[1 / (T * T) * 1]].
  rewrite !imtlg_v0_1x1 by (rewrite ?HT; lra).
  rewrite !Rmult_1_r, inv_sq_mul by (rewrite HT; lra).
  unfold nabs. rn.
  assert (E1 : Rltb (1 / T) 0 = false) by (apply Rltb_false; rewrite HT; lra).
  assert (E2 : Rltb 1 0 = false) by (apply Rltb_false; lra).
  rewrite E1, E2.
  assert (E3 : Rltb (1 / T) (1 / 10 ^ 12) = true) by (apply Rltb_true; rewrite HT; lra).
  assert (E4 : Rltb 1 (1 / 10 ^ 12) = false) by (apply Rltb_false; lra).
  rewrite E3, E4. rewrite vscale_cons. intros H. injection H as H. rewrite HT in H. lra.
Qed.
