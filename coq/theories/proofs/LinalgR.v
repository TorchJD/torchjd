(* The list linear algebra of Linalg.v and the vector and matrix helpers of Agg.v at the instance RN,
   in sections by operation.  A fact that relates two operations stands in the later section.  vadd and
   vsub truncate to the shorter argument, so the purely pointwise identities need no length hypotheses. *)
From Coq Require Import Reals List Lia Lra Permutation.
From TJ Require Import Num Linalg NumR Agg.
From TJ.proofs Require Export ListFacts.
Import ListNotations.
Local Open Scope R_scope.

Notation vsumR := (vsum RN).
Notation dotR := (dot RN).
Notation vscaleR := (vscale RN).
Notation vaddR := (vadd RN).
Notation vsubR := (vsub RN).
Notation vzeroR := (vzero RN).
Notation onehotR := (onehot RN).
Notation mvR := (mv RN).
Notation vmR := (vm RN).
Notation gramR := (gram RN).
Notation combineR := (combine_rows RN).
Notation mscaleR := (mscale RN).
Notation transposeR := (transpose RN).

Ltac rn := cbn [nadd nsub nmul ndiv nopp n0 n1 nleb nltb nsqrt nofnat RN] in *.

Definition wfmat (n : nat) (M : list (list R)) : Prop := Forall (fun r => length r = n) M.

Section Scalars.

Lemma Rltb_scale k a b : 0 < k -> Rltb (k * a) (k * b) = Rltb a b.
Proof.
  intros Hk. destruct (Rltb a b) eqn:E.
  - apply Rltb_true. apply Rltb_true in E. apply Rmult_lt_compat_l; assumption.
  - apply Rltb_false. apply Rltb_false in E. apply Rmult_le_compat_l; lra.
Qed.

Lemma Rleb_scale k a b : 0 < k -> Rleb (k * a) (k * b) = Rleb a b.
Proof.
  intros Hk. destruct (Rleb a b) eqn:E.
  - apply Rleb_true. apply Rleb_true in E. apply Rmult_le_compat_l; lra.
  - apply Rleb_false. apply Rleb_false in E. apply Rmult_lt_compat_l; assumption.
Qed.

Lemma Rltb_scale_0r k a : 0 < k -> Rltb (k * a) 0 = Rltb a 0.
Proof. intros Hk. rewrite <- (Rltb_scale k a 0 Hk). rewrite Rmult_0_r. reflexivity. Qed.

Lemma Rltb_scale_0l k a : 0 < k -> Rltb 0 (k * a) = Rltb 0 a.
Proof. intros Hk. rewrite <- (Rltb_scale k 0 a Hk). rewrite Rmult_0_r. reflexivity. Qed.

Lemma Rleb_scale_0r k a : 0 < k -> Rleb (k * a) 0 = Rleb a 0.
Proof. intros Hk. rewrite <- (Rleb_scale k a 0 Hk). rewrite Rmult_0_r. reflexivity. Qed.

(* no side condition on b: Coq's total inverse satisfies /(k b) = /k /b *)
Lemma div_scale k a b : k <> 0 -> (k * a) / (k * b) = a / b.
Proof.
  intros Hk. unfold Rdiv. rewrite Rinv_mult.
  transitivity ((k * / k) * (a * / b)); [ring|]. rewrite Rinv_r by exact Hk. ring.
Qed.

Lemma div_scale_cancel k a b : k <> 0 -> a / (k * b) * k = a / b.
Proof. intros Hk. rewrite <- (div_scale k a b Hk). unfold Rdiv. ring. Qed.

Lemma discr_real A B d : 0 <= A -> (forall t, 0 <= A * (t * t) + 2 * d * t + B) ->
  d * d <= A * B.
Proof.
  intros HA H. destruct (Req_dec A 0) as [E|E].
  - assert (Hd : d = 0).
    { destruct (Req_dec d 0) as [Hd|Hd]; [exact Hd|]. exfalso.
      set (t := - (B + 1) / (2 * d)).
      assert (Ht : 2 * d * t = - (B + 1)) by (unfold t; field; exact Hd).
      specialize (H t). rewrite E, Ht in H. lra. }
    rewrite E, Hd. lra.
  - assert (HA0 : 0 < A) by lra.
    set (t := - d / A).
    assert (Hk : A * (A * (t * t) + 2 * d * t + B) = A * B - d * d) by (unfold t; field; lra).
    pose proof (Rmult_le_pos A _ HA (H t)) as Hp. rewrite Hk in Hp. lra.
Qed.

Lemma inv_sq_mul t : 0 < t -> 1 / (t * t) * t = 1 / t.
Proof.
  intros Ht. unfold Rdiv. rewrite Rinv_mult, !Rmult_1_l, Rmult_assoc, Rinv_l by lra.
  apply Rmult_1_r.
Qed.

Lemma div_mul_cancel a t D : 0 < t -> a / t * (t * D) = a * D.
Proof.
  intros Ht. unfold Rdiv. rewrite Rmult_assoc, <- (Rmult_assoc (/ t)), Rinv_l, Rmult_1_l by lra.
  reflexivity.
Qed.

End Scalars.

Section VectorOps.

Lemma length_vzero n : length (vzeroR n) = n.
Proof. apply repeat_length. Qed.

Lemma length_vscale c v : length (vscaleR c v) = length v.
Proof. apply map_length. Qed.

Lemma length_vadd a b : length a = length b -> length (vaddR a b) = length a.
Proof.
  revert b; induction a as [|x a IH]; intros [|y b] H; cbn in *; try lia. rewrite IH; lia.
Qed.

Lemma length_lincomb a b c1 c2 : length c1 = length c2 ->
  length (vaddR (vscaleR a c1) (vscaleR b c2)) = length c1.
Proof. intros H. rewrite length_vadd; rewrite !length_vscale; [reflexivity | exact H]. Qed.

Lemma length_onehot n i x : length (onehotR n i x) = n.
Proof.
  revert i; induction n as [|n IH]; intros i; [reflexivity|].
  destruct i; cbn [onehot length]; [rewrite length_vzero | rewrite IH]; reflexivity.
Qed.

Lemma length_mean m : length (mean_weights RN m) = m.
Proof. apply repeat_length. Qed.

Lemma vscale_cons c x v : vscaleR c (x :: v) = c * x :: vscaleR c v.
Proof. reflexivity. Qed.

Lemma vscale_one r : vscaleR 1 r = r.
Proof.
  transitivity (map (fun z => z) r); [|apply map_id]. apply map_ext. intros z. rn. lra.
Qed.

Lemma vscale_vscale x y r : vscaleR x (vscaleR y r) = vscaleR (x * y) r.
Proof. unfold vscale. rewrite map_map. apply map_ext. intros z. rn. lra. Qed.

Lemma map_div_vscale s v : map (fun x => x / s) v = vscaleR (1 / s) v.
Proof. unfold vscale. apply map_ext. intros x. rn. unfold Rdiv. lra. Qed.

Lemma vscale_zero r : vscaleR 0 r = vzeroR (length r).
Proof.
  induction r as [|z r IH]; [reflexivity|]. rewrite vscale_cons, IH. unfold vzero. cbn [length repeat].
  rn. f_equal. lra.
Qed.

Lemma vscale_vzero c n : vscaleR c (vzeroR n) = vzeroR n.
Proof. unfold vzero, vscale. rewrite map_repeat. rn. rewrite Rmult_0_r. reflexivity. Qed.

Lemma vadd_vzero_l k : forall v : list R, length v = k -> vaddR (vzeroR k) v = v.
Proof.
  unfold vzero. induction k as [|k IH]; intros [|y v] H; cbn in H; try lia; [reflexivity|].
  cbn [repeat vadd]. rewrite IH by lia. rn. f_equal. lra.
Qed.

Lemma vadd_vzero_vzero n : vaddR (vzeroR n) (vzeroR n) = vzeroR n.
Proof. apply vadd_vzero_l, length_vzero. Qed.

Lemma vadd_comm : forall a b, vaddR a b = vaddR b a.
Proof.
  induction a as [|x a IH]; intros [|y b]; try reflexivity. cbn [vadd]. rewrite IH. rn. f_equal. lra.
Qed.

Lemma vadd_vzero_r w k : length w = k -> vaddR w (vzeroR k) = w.
Proof. intros H. rewrite vadd_comm. apply vadd_vzero_l. exact H. Qed.

Lemma vadd_assoc : forall a b c, vaddR a (vaddR b c) = vaddR (vaddR a b) c.
Proof.
  induction a as [|x a IH]; intros [|y b] [|z c]; try reflexivity. cbn [vadd]. rewrite IH. rn.
  f_equal. lra.
Qed.

Lemma vadd_swap a b c : vaddR a (vaddR b c) = vaddR b (vaddR a c).
Proof. rewrite !vadd_assoc, (vadd_comm a b). reflexivity. Qed.

Lemma vscale_vadd c : forall a b, vscaleR c (vaddR a b) = vaddR (vscaleR c a) (vscaleR c b).
Proof.
  induction a as [|x a IH]; intros [|y b]; try reflexivity.
  cbn [vadd]. rewrite !vscale_cons. cbn [vadd]. rewrite IH. rn. f_equal. lra.
Qed.

Lemma vscale_plus x y : forall r, vscaleR (x + y) r = vaddR (vscaleR x r) (vscaleR y r).
Proof.
  induction r as [|z r IH]; [reflexivity|]. rewrite !vscale_cons. cbn [vadd]. rewrite IH. rn.
  f_equal. lra.
Qed.

Lemma vadd_vscale_distr x y r va vb :
  vaddR (vscaleR (x + y) r) (vaddR va vb) = vaddR (vaddR (vscaleR x r) va) (vaddR (vscaleR y r) vb).
Proof.
  rewrite vscale_plus, !vadd_assoc. f_equal.
  rewrite <- !vadd_assoc. f_equal. apply vadd_comm.
Qed.

(* every fact about vsub comes from the one about vadd through this *)
Lemma vsub_vadd_opp : forall a b, vsubR a b = vaddR a (vscaleR (-1) b).
Proof.
  induction a as [|x a IH]; intros [|y b]; try reflexivity.
  rewrite vscale_cons. cbn [vsub vadd]. rewrite IH. rn. f_equal. lra.
Qed.

Lemma length_vsub a b : length a = length b -> length (vsubR a b) = length a.
Proof. intros H. rewrite vsub_vadd_opp. apply length_vadd. rewrite length_vscale. exact H. Qed.

Lemma vadd_opp w : vaddR w (vscaleR (-1) w) = vzeroR (length w).
Proof.
  transitivity (vscaleR (1 + -1) w); [rewrite vscale_plus, vscale_one; reflexivity|].
  replace (1 + -1) with 0 by lra. apply vscale_zero.
Qed.

Lemma vadd_vsub w v : length w = length v -> vaddR w (vsubR v w) = v.
Proof.
  intros H. rewrite vsub_vadd_opp, vadd_swap, vadd_opp. apply vadd_vzero_r. symmetry. exact H.
Qed.

Lemma vsub_vadd_cancel g v : length v = length g -> vsubR (vaddR g v) g = v.
Proof.
  intros H. rewrite vsub_vadd_opp, (vadd_comm g v), <- vadd_assoc, vadd_opp. apply vadd_vzero_r. exact H.
Qed.

Lemma vadd_vsub_assoc a b c : vaddR a (vsubR b c) = vsubR (vaddR a b) c.
Proof. rewrite !vsub_vadd_opp. apply vadd_assoc. Qed.

Lemma vadd_sub_scale x t r rest :
  vaddR (vscaleR (x - t) r) rest = vsubR (vaddR (vscaleR x r) rest) (vscaleR t r).
Proof.
  rewrite vsub_vadd_opp, vscale_vscale, <- vadd_assoc, (vadd_comm rest), vadd_assoc, <- vscale_plus.
  f_equal. f_equal. lra.
Qed.

Lemma vscale_vsub t g h : vscaleR t (vsubR g h) = vsubR (vscaleR t g) (vscaleR t h).
Proof. rewrite !vsub_vadd_opp, vscale_vadd, !vscale_vscale, (Rmult_comm t). reflexivity. Qed.

Lemma onehot_scale n i t : onehotR n i t = vscaleR t (onehotR n i 1).
Proof.
  revert i; induction n as [|n IH]; intros i; [reflexivity|].
  destruct i; cbn [onehot]; rewrite vscale_cons.
  - rewrite vscale_vzero. rn. f_equal. lra.
  - rewrite <- IH. rn. f_equal. lra.
Qed.

Lemma firstn_vscale k t l : firstn k (vscaleR t l) = vscaleR t (firstn k l).
Proof. apply firstn_map. Qed.

Lemma skipn_vscale k t l : skipn k (vscaleR t l) = vscaleR t (skipn k l).
Proof. apply skipn_map. Qed.

Lemma length_vupd {A} (v : list A) j f : length (vupd v j f) = length v.
Proof. revert j; induction v as [|x v IH]; intros [|j]; cbn; auto. Qed.

Lemma vupd_ext (v : list R) j (f g : R -> R) : (forall x, f x = g x) -> vupd v j f = vupd v j g.
Proof.
  intros E. revert j. induction v as [|x v IH]; intros [|j]; cbn [vupd]; try reflexivity.
  - rewrite E. reflexivity.
  - rewrite IH. reflexivity.
Qed.

Lemma vscale_vscale_inv a b v : a * b = 1 -> vscaleR a (vscaleR b v) = v.
Proof. intros H. rewrite vscale_vscale, H. apply vscale_one. Qed.

Lemma vscale_onehot k m i t : vscaleR k (onehotR m i t) = onehotR m i (k * t).
Proof. rewrite (onehot_scale m i t), (onehot_scale m i (k * t)). apply vscale_vscale. Qed.

Lemma vscale_minus x y : forall r, vscaleR (x - y) r = vsubR (vscaleR x r) (vscaleR y r).
Proof.
  induction r as [|z r IH]; [reflexivity|].
  cbn [vscale map vsub]. f_equal; [rn; apply Rmult_minus_distr_r | apply IH].
Qed.

Lemma vsub_vadd_vadd : forall a b c d, length a = length b -> length a = length c -> length a = length d ->
  vsubR (vaddR a b) (vaddR c d) = vaddR (vsubR a c) (vsubR b d).
Proof.
  induction a as [|x a IH]; intros b c d H1 H2 H3; [reflexivity|].
  destruct b as [|y b]; [discriminate|]. destruct c as [|z c]; [discriminate|].
  destruct d as [|t d]; [discriminate|]. injection H1 as H1. injection H2 as H2. injection H3 as H3.
  cbn [vadd vsub]. rewrite IH by assumption. rn. f_equal. ring.
Qed.

Lemma vsub_mid : forall x y z, length x = length y -> length x = length z ->
  vsubR x z = vaddR (vsubR x y) (vsubR y z).
Proof.
  induction x as [|a x IH]; intros y z H1 H2; [reflexivity|].
  destruct y as [|b y]; [discriminate|]. destruct z as [|c z]; [discriminate|].
  injection H1 as H1. injection H2 as H2.
  cbn [vadd vsub]. rewrite <- IH by assumption. rn. f_equal. ring.
Qed.

End VectorOps.

Section Entries.

Lemma nth_vzero n i : nth i (vzeroR n) 0 = 0.
Proof. apply nth_repeat. Qed.

Lemma nth_vscale c v i : nth i (vscaleR c v) 0 = c * nth i v 0.
Proof.
  revert i; induction v as [|x v IH]; intros [|i]; cbn [vscale map nth]; rn; try lra.
  apply IH.
Qed.

Lemma nth_vadd a b i : length a = length b -> nth i (vaddR a b) 0 = nth i a 0 + nth i b 0.
Proof.
  revert b i; induction a as [|x a IH]; intros [|y b] i H; cbn in H; try lia.
  - destruct i; cbn; lra.
  - destruct i; cbn [vadd nth]; rn; [lra|]. apply IH. lia.
Qed.

Lemma nth_vsub a b i : length a = length b -> nth i (vsubR a b) 0 = nth i a 0 - nth i b 0.
Proof.
  intros H. rewrite vsub_vadd_opp, nth_vadd, nth_vscale by (rewrite length_vscale; exact H). lra.
Qed.

Lemma nth_onehot : forall n i j x, (j < n)%nat ->
  nth j (onehotR n i x) 0 = if Nat.eqb i j then x else 0.
Proof.
  induction n as [|n IH]; intros i j x Hj; [lia|].
  destruct i, j; cbn [onehot nth Nat.eqb]; try reflexivity; [apply nth_vzero | apply IH; lia].
Qed.

End Entries.

Section Vsum.

Lemma vsum_cons x v : vsumR (x :: v) = x + vsumR v.
Proof. reflexivity. Qed.

Lemma vsum_app a b : vsumR (a ++ b) = vsumR a + vsumR b.
Proof. induction a as [|x a IH]; cbn [app]; rewrite ?vsum_cons; [cbn; lra | rewrite IH; lra]. Qed.

Lemma vsum_repeat x n : vsumR (repeat x n) = INR n * x.
Proof.
  induction n as [|n IH]; [cbn; lra|]. cbn [repeat]. rewrite vsum_cons, IH, S_INR. lra.
Qed.

Lemma vsum_vzero n : vsumR (vzeroR n) = 0.
Proof. unfold vzero. rewrite vsum_repeat. rn. lra. Qed.

Lemma vsum_pos e : e <> [] -> Forall (fun x => 0 < x) e -> 0 < vsumR e.
Proof.
  intros Hne H. induction H as [|x e Hx He IH]; [congruence|]. rewrite vsum_cons.
  destruct e as [|y e']; [cbn; lra|]. specialize (IH ltac:(congruence)). lra.
Qed.

Lemma vsum_vscale c v : vsumR (vscaleR c v) = c * vsumR v.
Proof.
  induction v as [|x v IH]; [cbn; lra|]. rewrite vscale_cons, !vsum_cons, IH. lra.
Qed.

Lemma vsum_map_scale {A} t (f : A -> R) l :
  vsumR (map (fun a => t * f a) l) = t * vsumR (map f l).
Proof. rewrite <- vsum_vscale. unfold vscale. rewrite map_map. reflexivity. Qed.

Lemma vsum_vadd a b : length a = length b -> vsumR (vaddR a b) = vsumR a + vsumR b.
Proof.
  revert b; induction a as [|x a IH]; intros [|y b] H; cbn in H; try lia; [cbn; lra|].
  cbn [vadd]. rewrite !vsum_cons, IH by lia. rn. lra.
Qed.

Lemma vsum_onehot n i x : (i < n)%nat -> vsumR (onehotR n i x) = x.
Proof.
  revert i; induction n as [|n IH]; intros i Hi; [lia|].
  destruct i; cbn [onehot]; rewrite vsum_cons.
  - rewrite vsum_vzero. lra.
  - rewrite IH by lia. rn. lra.
Qed.

Lemma vsum_perm l l' : Permutation l l' -> vsumR l = vsumR l'.
Proof.
  induction 1 as [|x l l' H IH|x y l|l l' l'' H1 IH1 H2 IH2].
  - reflexivity.
  - rewrite !vsum_cons, IH. reflexivity.
  - rewrite !vsum_cons, <- !Rplus_assoc, (Rplus_comm y x). reflexivity.
  - rewrite IH1. exact IH2.
Qed.

Lemma vsum_map_le {A} (f g : A -> R) l : (forall a, In a l -> f a <= g a) ->
  vsumR (map f l) <= vsumR (map g l).
Proof.
  induction l as [|a l IH]; intros H; [cbn; lra|]. cbn [map]. rewrite !vsum_cons.
  pose proof (H a (or_introl eq_refl)). specialize (IH (fun x Hx => H x (or_intror Hx))). lra.
Qed.

Lemma vsum_map_nonneg {A} (f : A -> R) l : (forall a, In a l -> 0 <= f a) -> 0 <= vsumR (map f l).
Proof.
  induction l as [|a l IH]; intros H; [cbn; lra|]. cbn [map]. rewrite vsum_cons.
  pose proof (H a (or_introl eq_refl)). specialize (IH (fun x Hx => H x (or_intror Hx))). lra.
Qed.

End Vsum.

Section Dot.

Lemma dot_nil_l b : dotR [] b = 0.
Proof. reflexivity. Qed.

Lemma dot_nil_r a : dotR a [] = 0.
Proof. destruct a; reflexivity. Qed.

Lemma dot_cons x a y b : dotR (x :: a) (y :: b) = x * y + dotR a b.
Proof. reflexivity. Qed.

Lemma dot_comm a b : dotR a b = dotR b a.
Proof.
  revert b; induction a as [|x a IH]; intros [|y b]; try reflexivity.
  rewrite !dot_cons, IH. lra.
Qed.

Lemma dot_vzero_l n b : dotR (vzeroR n) b = 0.
Proof.
  revert b; induction n as [|n IH]; intros [|y b]; try reflexivity.
  unfold vzero in *. cbn [repeat]. rewrite dot_cons, IH. rn. lra.
Qed.

Lemma dot_vzero_r n a : dotR a (vzeroR n) = 0.
Proof. rewrite dot_comm. apply dot_vzero_l. Qed.

Lemma dot_vscale_l c a b : dotR (vscaleR c a) b = c * dotR a b.
Proof.
  revert b; induction a as [|x a IH]; intros [|y b]; rewrite ?vscale_cons, ?dot_nil_l, ?dot_nil_r;
    try lra.
  rewrite !dot_cons, IH. lra.
Qed.

Lemma dot_vscale_r c a b : dotR a (vscaleR c b) = c * dotR a b.
Proof. rewrite dot_comm, dot_vscale_l, dot_comm. reflexivity. Qed.

Lemma dot_vadd_l a b c : length a = length b ->
  dotR (vaddR a b) c = dotR a c + dotR b c.
Proof.
  revert b c; induction a as [|x a IH]; intros [|y b] [|z c] H; cbn in H; try lia;
    cbn [vadd]; rewrite ?dot_nil_l, ?dot_nil_r; try lra.
  rewrite !dot_cons, IH by lia. rn. lra.
Qed.

Lemma dot_vadd_r a b c : length b = length c ->
  dotR a (vaddR b c) = dotR a b + dotR a c.
Proof. intros H. rewrite dot_comm, dot_vadd_l by exact H. rewrite (dot_comm b), (dot_comm c). lra. Qed.

Lemma dot_vsub_l a b c : length a = length b ->
  dotR (vsubR a b) c = dotR a c - dotR b c.
Proof.
  intros H. rewrite vsub_vadd_opp, dot_vadd_l, dot_vscale_l by (rewrite length_vscale; exact H). lra.
Qed.

Lemma dot_vsub_r a b c : length b = length c -> dotR a (vsubR b c) = dotR a b - dotR a c.
Proof.
  intros H. rewrite dot_comm, dot_vsub_l by exact H. rewrite (dot_comm b), (dot_comm c). reflexivity.
Qed.

Lemma dot_vsub_self a b : length a = length b ->
  dotR (vsubR a b) (vsubR a b) = dotR a a - 2 * dotR a b + dotR b b.
Proof.
  intros Hl. rewrite dot_vsub_l by exact Hl. rewrite !dot_vsub_r by exact Hl.
  rewrite (dot_comm b a). lra.
Qed.

Lemma dot_bilin a b c d x y z w : length x = length y -> length z = length w ->
  dotR (vaddR (vscaleR a x) (vscaleR b y)) (vaddR (vscaleR c z) (vscaleR d w)) =
  a * c * dotR x z + a * d * dotR x w + b * c * dotR y z + b * d * dotR y w.
Proof.
  intros H1 H2. rewrite dot_vadd_l by (rewrite !length_vscale; exact H1).
  rewrite !dot_vadd_r by (rewrite !length_vscale; exact H2).
  rewrite !dot_vscale_l, !dot_vscale_r. ring.
Qed.

Lemma dot_lincomb a b x y : length x = length y ->
  dotR (vaddR (vscaleR a x) (vscaleR b y)) (vaddR (vscaleR a x) (vscaleR b y)) =
  a * a * dotR x x + 2 * (a * b) * dotR x y + b * b * dotR y y.
Proof. intros H. rewrite dot_bilin by exact H. rewrite (dot_comm y x). ring. Qed.

Lemma dot_onehot n x : forall i b, length b = n -> dotR (onehotR n i x) b = x * nth i b 0.
Proof.
  induction n as [|n IH]; intros i [|y b] Hl; cbn in Hl; try lia; [destruct i; cbn; lra|].
  destruct i; cbn [onehot nth]; rewrite dot_cons.
  - rewrite dot_vzero_l. lra.
  - rewrite IH by lia. rn. lra.
Qed.

Lemma dot_self_nonneg a : 0 <= dotR a a.
Proof.
  induction a as [|x a IH]; [cbn; lra|]. rewrite dot_cons. nra.
Qed.

Lemma dot_self_zero a : dotR a a = 0 -> a = vzeroR (length a).
Proof.
  induction a as [|x a IH]; intros H; [reflexivity|].
  rewrite dot_cons in H. pose proof (dot_self_nonneg a) as Hp.
  assert (x = 0) by nra. assert (dotR a a = 0) by nra.
  cbn [length]. unfold vzero in *. cbn [repeat]. rewrite <- IH by assumption. subst x. reflexivity.
Qed.

Lemma cauchy_schwarz a b : length a = length b ->
  dotR a b * dotR a b <= dotR a a * dotR b b.
Proof.
  intros Hl. apply discr_real; [apply dot_self_nonneg|]. intros t.
  pose proof (dot_self_nonneg (vaddR (vscaleR t a) (vscaleR 1 b))) as H.
  rewrite dot_lincomb in H by exact Hl. lra.
Qed.
Print Assumptions cauchy_schwarz.

Lemma norm_triangle y e : length y = length e ->
  sqrt (dotR (vaddR y e) (vaddR y e)) <= sqrt (dotR y y) + sqrt (dotR e e).
Proof.
  intros Hl. set (a := sqrt (dotR y y)). set (b := sqrt (dotR e e)).
  assert (Ha : 0 <= a) by apply sqrt_pos. assert (Hb : 0 <= b) by apply sqrt_pos.
  assert (Ea : a * a = dotR y y) by apply sqrt_sqrt, dot_self_nonneg.
  assert (Eb : b * b = dotR e e) by apply sqrt_sqrt, dot_self_nonneg.
  assert (Hcs : dotR y e <= a * b).
  { apply Rsqr_incr_0_var; [unfold Rsqr | apply Rmult_le_pos; assumption].
    replace (a * b * (a * b)) with ((a * a) * (b * b)) by ring. rewrite Ea, Eb.
    apply cauchy_schwarz, Hl. }
  rewrite <- (sqrt_square (a + b)) by lra. apply sqrt_le_1_alt.
  rewrite dot_vadd_l, !dot_vadd_r, (dot_comm e y), <- Ea, <- Eb by exact Hl. clear -Hcs. lra.
Qed.

Lemma vnorm_vscale c v : 0 <= c -> vnorm RN (vscaleR c v) = c * vnorm RN v.
Proof.
  intros Hc. unfold vnorm. rn. rewrite dot_vscale_l, dot_vscale_r, <- Rmult_assoc.
  rewrite sqrt_mult_alt by nra. rewrite sqrt_square by exact Hc. reflexivity.
Qed.

Lemma dot_map2 (f g : nat -> R) p : dotR (map f p) (map g p) = vsumR (map (fun i => f i * g i) p).
Proof. induction p as [|i p IH]; [reflexivity|]. cbn [map]. rewrite dot_cons, vsum_cons, IH. reflexivity. Qed.

Lemma dot_as_vsum a : forall b, length a = length b ->
  dotR a b = vsumR (map (fun i => nth i a 0 * nth i b 0) (seq 0 (length a))).
Proof.
  induction a as [|x a IH]; intros [|y b] H; cbn in H; try lia; [reflexivity|].
  cbn [length seq map nth]. rewrite dot_cons, vsum_cons. f_equal.
  rewrite <- seq_shift, map_map. apply IH. lia.
Qed.

Lemma vsub_norm_zero_eq x y : length x = length y ->
  dotR (vsubR x y) (vsubR x y) = 0 -> x = y.
Proof.
  intros Hl H. apply dot_self_zero in H. rewrite length_vsub in H by exact Hl.
  transitivity (vaddR y (vsubR x y)); [symmetry; apply vadd_vsub; congruence|].
  rewrite H. apply vadd_vzero_r. congruence.
Qed.

Lemma dot_lower_cs g z s gap : length g = length z -> 0 <= s ->
  dotR g g <= s * s -> dotR z z <= gap -> - s * sqrt gap <= dotR g z.
Proof.
  intros Hl Hs Hg Hz. pose proof (dot_self_nonneg z) as Hz0.
  rewrite <- Ropp_mult_distr_l.
  apply Rsqr_neg_pos_le_0; [|exact (Rmult_le_pos _ _ Hs (sqrt_pos gap))].
  unfold Rsqr. apply Rle_trans with (1 := cauchy_schwarz g z Hl).
  replace (s * sqrt gap * (s * sqrt gap)) with ((s * s) * (sqrt gap * sqrt gap)) by ring.
  rewrite sqrt_sqrt by lra.
  apply Rmult_le_compat; [apply dot_self_nonneg | exact Hz0 | exact Hg | exact Hz].
Qed.

(* the variational inequality at x makes x the closest point to p:
   |y - p|^2 = |x - p|^2 + 2 <x - p, y - x> + |y - x|^2 *)
Lemma variational_closest x p y : length x = length p -> length y = length p ->
  0 <= dotR (vsubR x p) (vsubR y x) ->
  dotR (vsubR x p) (vsubR x p) <= dotR (vsubR y p) (vsubR y p).
Proof.
  intros Hx Hy Hvar. pose proof (dot_self_nonneg (vsubR y x)) as Hp.
  rewrite dot_vsub_l, !dot_vsub_r in Hvar by congruence.
  rewrite !dot_vsub_self in * by congruence.
  rewrite (dot_comm y x) in Hp. rewrite (dot_comm p x), (dot_comm p y) in Hvar. lra.
Qed.

End Dot.

Section Argmin.

Lemma argmin_from_lt best bi i v : (bi < i)%nat ->
  (argmin_from RN best bi i v < i + length v)%nat.
Proof.
  revert best bi i; induction v as [|x v IH]; intros best bi i H; cbn [argmin_from length]; [lia|].
  destruct (nltb RN x best).
  - specialize (IH x i (S i) ltac:(lia)). lia.
  - specialize (IH best bi (S i) ltac:(lia)). lia.
Qed.

Lemma argmin_lt v : v <> [] -> (argmin RN v < length v)%nat.
Proof.
  destruct v as [|x v]; [congruence|]. intros _. unfold argmin.
  pose proof (argmin_from_lt x 0 1 v ltac:(lia)). cbn [length]. lia.
Qed.

Lemma argmin_from_scale k best bi i v : 0 < k ->
  argmin_from RN (k * best) bi i (vscaleR k v) = argmin_from RN best bi i v.
Proof.
  intros Hk. revert best bi i. induction v as [|x v IH]; intros best bi i; [reflexivity|].
  cbn [vscale map argmin_from]. fold (vscaleR k v). rn.
  rewrite Rltb_scale by exact Hk. destruct (Rltb x best); apply IH.
Qed.

Lemma argmin_scale k v : 0 < k -> argmin RN (vscaleR k v) = argmin RN v.
Proof.
  intros Hk. destruct v as [|x v]; [reflexivity|]. cbn [vscale map argmin]. fold (vscaleR k v).
  rn. apply argmin_from_scale. exact Hk.
Qed.

(* [pre] is the part of the list already scanned; [best] is its entry at [bi] *)
Lemma argmin_from_min v : forall pre best bi, nth bi (pre ++ v) 0 = best ->
  let r := argmin_from RN best bi (length pre) v in
  nth r (pre ++ v) 0 <= best /\ Forall (Rle (nth r (pre ++ v) 0)) v.
Proof.
  induction v as [|x v IH]; intros pre best bi Hb; cbn [argmin_from].
  - split; [rewrite Hb; apply Rle_refl | constructor].
  - replace (pre ++ x :: v) with ((pre ++ [x]) ++ v) in * by (rewrite <- app_assoc; reflexivity).
    replace (S (length pre)) with (length (pre ++ [x])) by (rewrite last_length; reflexivity).
    rn. destruct (Rltb x best) eqn:E.
    + apply Rltb_true in E.
      destruct (IH (pre ++ [x]) x (length pre)) as [Hle Hall].
      { rewrite <- app_assoc. apply nth_middle. }
      split; [lra | constructor; [exact Hle | exact Hall]].
    + apply Rltb_false in E.
      destruct (IH (pre ++ [x]) best bi Hb) as [Hle Hall].
      split; [exact Hle | constructor; [lra | exact Hall]].
Qed.

Lemma argmin_min v : Forall (Rle (nth (argmin RN v) v 0)) v.
Proof.
  destruct v as [|x v]; [constructor|].
  destruct (argmin_from_min v [x] x 0%nat eq_refl) as [Hle Hall].
  constructor; [exact Hle | exact Hall].
Qed.

End Argmin.

Section Wfmat.

Lemma wfmat_In n M r : wfmat n M -> In r M -> length r = n.
Proof. intros H. apply (proj1 (Forall_forall _ _) H). Qed.

Lemma wfmat_nth n M i : wfmat n M -> (i < length M)%nat -> length (nth i M []) = n.
Proof. intros H Hi. apply (wfmat_In n M); [exact H | apply nth_In; exact Hi]. Qed.

Lemma wfmat_map {A} n (f : A -> list R) l :
  (forall x, In x l -> length (f x) = n) -> wfmat n (map f l).
Proof.
  intros H. apply Forall_forall. intros r Hr. apply in_map_iff in Hr.
  destruct Hr as (x & <- & Hx). apply H. exact Hx.
Qed.

Lemma wfmat_map_rows n (f : list R -> list R) M :
  (forall r, length (f r) = length r) -> wfmat n M -> wfmat n (map f M).
Proof. intros Hf HM. apply wfmat_map. intros r Hr. rewrite Hf. apply (wfmat_In n M); assumption. Qed.

Lemma ncols_wf n (J : list (list R)) : wfmat n J -> J <> [] -> ncols J = n.
Proof. destruct J as [|r J]; [congruence|]. intros H _. apply Forall_cons_iff in H. apply H. Qed.

Lemma wfmat_ncols n (J : list (list R)) : wfmat n J -> wfmat (ncols J) J.
Proof.
  destruct J as [|r J]; intros H; [constructor|].
  pose proof H as H'. apply Forall_cons_iff in H'. destruct H' as [Hr _]. cbn [ncols].
  rewrite Hr. exact H.
Qed.

Lemma mat_ext m A B : length A = m -> length B = m -> wfmat m A -> wfmat m B ->
  (forall i j, (i < m)%nat -> (j < m)%nat -> mget RN A i j = mget RN B i j) -> A = B.
Proof.
  intros HA HB HwA HwB H. apply (nth_ext A B [] []); [congruence|]. intros i Hi.
  apply (nth_ext _ _ 0 0).
  - rewrite !(wfmat_nth m) by (auto; congruence). reflexivity.
  - intros j Hj. rewrite (wfmat_nth m) in Hj by (auto; congruence). apply H; congruence.
Qed.

Lemma mget_table (f : nat -> nat -> R) m i j : (i < m)%nat -> (j < m)%nat ->
  mget RN (map (fun a => map (f a) (seq 0 m)) (seq 0 m)) i j = f i j.
Proof. intros Hi Hj. unfold mget. rewrite nth_map_seq by exact Hi. apply nth_map_seq. exact Hj. Qed.

End Wfmat.

Section MatVec.

Lemma length_mv M x : length (mvR M x) = length M.
Proof. apply map_length. Qed.

Lemma nth_mv M x i : (i < length M)%nat -> nth i (mvR M x) 0 = dotR (nth i M []) x.
Proof. apply (nth_map_lt (fun r => dotR r x)). Qed.

Lemma mv_vadd M x y : length x = length y ->
  mvR M (vaddR x y) = vaddR (mvR M x) (mvR M y).
Proof.
  intros H. induction M as [|r M IH]; [reflexivity|].
  cbn [mv map vadd]. fold (mvR M (vaddR x y)) (mvR M x) (mvR M y).
  rewrite dot_vadd_r by exact H. rewrite IH. reflexivity.
Qed.

Lemma mv_vscale M c x : mvR M (vscaleR c x) = vscaleR c (mvR M x).
Proof.
  unfold mv, vscale. rewrite map_map. apply map_ext. intros r. apply (dot_vscale_r c r x).
Qed.

Lemma mv_vsub M x y : length x = length y ->
  mvR M (vsubR x y) = vsubR (mvR M x) (mvR M y).
Proof.
  intros H. rewrite !vsub_vadd_opp, mv_vadd, mv_vscale by (rewrite length_vscale; exact H).
  reflexivity.
Qed.

Lemma mv_vzero M k : mvR M (vzeroR k) = vzeroR (length M).
Proof.
  induction M as [|r M IH]; [reflexivity|]. cbn [mv map length]. fold (mvR M (vzeroR k)).
  rewrite IH, dot_vzero_r. reflexivity.
Qed.

Lemma mv_mzero m x : mvR (mzero RN m) x = vzeroR m.
Proof.
  unfold mzero, mv. rewrite map_repeat, dot_vzero_l. reflexivity.
Qed.

Lemma length_mzero m : length (mzero RN m) = m.
Proof. apply repeat_length. Qed.

Lemma wfmat_mzero m : wfmat m (mzero RN m).
Proof.
  apply Forall_forall. intros r Hr. apply repeat_spec in Hr. subst. apply length_vzero.
Qed.

Lemma mget_mzero m i j : (i < m)%nat -> mget RN (mzero RN m) i j = 0.
Proof.
  intros Hi. unfold mget, mzero. rewrite (nth_repeat_lt _ [] m i Hi). unfold vzero. apply nth_repeat.
Qed.

End MatVec.

Section VecMat.

Lemma length_vm n w M : wfmat n M -> length (vmR n w M) = n.
Proof.
  revert M; induction w as [|x w IH]; intros [|r M] H; cbn [vm]; try apply length_vzero.
  apply Forall_cons_iff in H; destruct H as [Hr HM].
  rewrite length_vadd; rewrite length_vscale; [exact Hr | rewrite IH by exact HM; exact Hr].
Qed.

Lemma vm_nil n w : vmR n w [] = vzeroR n.
Proof. destruct w; reflexivity. Qed.

Lemma dot_vm n w M x : wfmat n M -> length w = length M ->
  dotR (vmR n w M) x = dotR w (mvR M x).
Proof.
  revert M; induction w as [|c w IH]; intros [|r M] H Hl; cbn in Hl; try lia.
  - cbn [vm mv map]. rewrite dot_vzero_l. reflexivity.
  - apply Forall_cons_iff in H; destruct H as [Hr HM]. cbn [vm mv map]. fold (mvR M x).
    rewrite dot_vadd_l.
    + rewrite dot_vscale_l, dot_cons, IH by (auto; lia). reflexivity.
    + rewrite length_vscale, length_vm by exact HM. exact Hr.
Qed.

Lemma vm_vzero_any p Q : wfmat p Q -> forall k, vmR p (vzeroR k) Q = vzeroR p.
Proof.
  intros HQ. induction HQ as [|q Q Hq HQ IH]; intros [|k]; try reflexivity.
  change (vzeroR (S k)) with (n0 RN :: vzeroR k). cbn [vm].
  rewrite IH. rn. rewrite vscale_zero, Hq. apply vadd_vzero_vzero.
Qed.

Lemma vm_vadd n a b M : length a = length b ->
  vmR n (vaddR a b) M = vaddR (vmR n a M) (vmR n b M).
Proof.
  revert b M; induction a as [|x a IH]; intros [|y b] M Hl; cbn in Hl; try lia.
  - cbn [vadd vm]. symmetry. apply vadd_vzero_vzero.
  - destruct M as [|r M]; cbn [vadd vm]; [symmetry; apply vadd_vzero_vzero|].
    rewrite IH by lia. rn. apply vadd_vscale_distr.
Qed.

Lemma vm_vscale n c a M : vmR n (vscaleR c a) M = vscaleR c (vmR n a M).
Proof.
  revert M; induction a as [|x a IH]; intros M; [symmetry; apply vscale_vzero|].
  destruct M as [|r M]; [symmetry; apply vscale_vzero|].
  rewrite vscale_cons. cbn [vm]. rewrite IH, vscale_vadd, vscale_vscale. reflexivity.
Qed.

Lemma vm_vsub n a b M : length a = length b ->
  vmR n (vsubR a b) M = vsubR (vmR n a M) (vmR n b M).
Proof.
  intros H. rewrite !vsub_vadd_opp, vm_vadd, vm_vscale by (rewrite length_vscale; exact H).
  reflexivity.
Qed.

Lemma vm_lincomb n a b u w J : length u = length w ->
  vmR n (vaddR (vscaleR a u) (vscaleR b w)) J =
  vaddR (vscaleR a (vmR n u J)) (vscaleR b (vmR n w J)).
Proof.
  intros Hl. rewrite vm_vadd by (rewrite !length_vscale; exact Hl).
  rewrite !vm_vscale. reflexivity.
Qed.

Lemma vm_vupd n : forall J cw j t, length cw = length J -> (j < length J)%nat ->
  vmR n (vupd cw j (fun x => x - t)) J = vsubR (vmR n cw J) (vscaleR t (nth j J [])).
Proof.
  induction J as [|r J IH]; intros [|x cw] j t Hl Hj; cbn in Hl, Hj; try lia.
  destruct j as [|j]; cbn [vupd vm nth].
  - apply vadd_sub_scale.
  - rewrite IH by lia. apply vadd_vsub_assoc.
Qed.

Lemma vm_onehot n J : wfmat n J -> forall i, (i < length J)%nat ->
  vmR n (onehotR (length J) i 1) J = nth i J [].
Proof.
  intros HJ. induction HJ as [|r J Hr HJ IH]; intros i Hi; [cbn in Hi; lia|].
  destruct i as [|i]; cbn [length onehot vm nth].
  - rewrite (vm_vzero_any n) by exact HJ. rewrite vscale_one. apply vadd_vzero_r. exact Hr.
  - rewrite IH by (cbn in Hi; lia). rn. rewrite vscale_zero, Hr. apply vadd_vzero_l.
    apply wfmat_nth; [exact HJ | cbn in Hi; lia].
Qed.

Lemma combine_wf n J w : wfmat n J -> J <> [] -> combineR J w = vmR n w J.
Proof. intros HJ Hne. unfold combine_rows. rewrite (ncols_wf n) by assumption. reflexivity. Qed.

Lemma length_combine n J w : wfmat n J -> J <> [] -> length (combineR J w) = ncols J.
Proof.
  intros HJ Hne. rewrite (combine_wf n), (ncols_wf n) by assumption. apply length_vm. exact HJ.
Qed.

Lemma mget_column B j : forall i, nth i (column RN B j) 0 = mget RN B i j.
Proof.
  unfold mget. induction B as [|r B IH]; intros i; cbn [column].
  - destruct i, j; reflexivity.
  - destruct i; cbn [nth]; [reflexivity|apply IH].
Qed.

Lemma column_map (J : list (list R)) j : column RN J j = map (fun r => nth j r 0) J.
Proof. induction J as [|r J IH]; [reflexivity|]. cbn [column map]. rewrite IH. reflexivity. Qed.

Lemma length_column B j : length (column RN B j) = length B.
Proof. rewrite column_map. apply map_length. Qed.

Lemma nth_vm m j : forall r B, wfmat m B -> length r = length B -> (j < m)%nat ->
  nth j (vmR m r B) 0 = dotR r (column RN B j).
Proof.
  induction r as [|x r IH]; intros [|b B] Hwf Hl Hj; cbn in Hl; try lia.
  - cbn [vm column]. unfold vzero. rewrite nth_repeat. reflexivity.
  - apply Forall_cons_iff in Hwf. destruct Hwf as [Hb HB]. cbn [vm column].
    rewrite nth_vadd by (rewrite length_vscale, length_vm by exact HB; exact Hb).
    rewrite nth_vscale, dot_cons, IH by (auto; lia). reflexivity.
Qed.

Lemma mget_transpose m A i j : (i < m)%nat -> mget RN (transposeR m A) i j = mget RN A j i.
Proof.
  intros Hi. rewrite <- (mget_column A i j). unfold mget, transpose. f_equal.
  apply nth_map_seq. exact Hi.
Qed.

Lemma length_transpose m A : length (transposeR m A) = m.
Proof. unfold transpose. rewrite map_length. apply seq_length. Qed.

Lemma wfmat_transpose m A : wfmat (length A) (transposeR m A).
Proof. apply wfmat_map. intros j _. apply length_column. Qed.

Lemma mv_vm G m : forall a V, wfmat m V -> mvR G (vmR m a V) = vmR (length G) a (map (mvR G) V).
Proof.
  induction a as [|x a IH]; intros [|v V] HV; cbn [vm map]; try apply mv_vzero.
  apply Forall_cons_iff in HV. destruct HV as [Hv HV].
  rewrite mv_vadd by (rewrite length_vscale, (length_vm m) by exact HV; exact Hv).
  rewrite mv_vscale, IH by exact HV. reflexivity.
Qed.

Lemma mv_transpose p Q y : wfmat p Q -> length y = length Q ->
  mvR (transposeR p Q) y = vmR p y Q.
Proof.
  intros HQ Hy. apply (nth_ext _ _ 0 0).
  - rewrite length_mv, length_transpose, (length_vm p y Q HQ). reflexivity.
  - intros j Hj. rewrite length_mv, length_transpose in Hj.
    rewrite nth_mv by (rewrite length_transpose; exact Hj).
    unfold transpose. rewrite nth_map_seq by exact Hj.
    rewrite (nth_vm p j y Q HQ Hy Hj). apply dot_comm.
Qed.

Lemma mv_sym_vm m M w : length M = m -> wfmat m M -> length w = m ->
  (forall i j, (i < m)%nat -> (j < m)%nat -> mget RN M i j = mget RN M j i) ->
  mvR M w = vmR m w M.
Proof.
  intros HM Hwf Hw Hsym. apply (nth_ext _ _ 0 0).
  - rewrite length_mv, (length_vm m w M Hwf). exact HM.
  - intros i Hi. rewrite length_mv, HM in Hi.
    rewrite nth_mv, (nth_vm m i w M Hwf), dot_comm by congruence. f_equal.
    apply (nth_ext _ _ 0 0).
    + rewrite length_column, (wfmat_nth m M i Hwf) by congruence. congruence.
    + intros j Hj. rewrite (wfmat_nth m M i Hwf) in Hj by congruence.
      rewrite mget_column. apply Hsym; assumption.
Qed.

End VecMat.

Section Gramian.

Lemma length_gram J : length (gramR J) = length J.
Proof. apply map_length. Qed.

Lemma wfmat_gram J : wfmat (length J) (gramR J).
Proof. apply wfmat_map. intros r _. apply map_length. Qed.

Lemma nth_gram_row J j : (j < length J)%nat ->
  nth j (gramR J) [] = map (fun s => dotR (nth j J []) s) J.
Proof. apply (nth_map_lt (fun r => map (fun s => dotR r s) J)). Qed.

Lemma mget_gram J i j : mget RN (gramR J) i j = dotR (nth i J []) (nth j J []).
Proof.
  unfold mget. destruct (lt_dec i (length J)) as [Hi|Hi].
  - rewrite nth_gram_row by exact Hi. destruct (lt_dec j (length J)) as [Hj|Hj].
    + apply (nth_map_lt (fun s => dotR (nth i J []) s)). exact Hj.
    + rewrite nth_overflow by (rewrite map_length; lia). rewrite (@nth_overflow _ J j) by lia.
      rewrite dot_nil_r. reflexivity.
  - rewrite (nth_overflow (gramR J)) by (rewrite length_gram; lia). rewrite (nth_overflow J) by lia.
    destruct j; reflexivity.
Qed.

Lemma mv_gram n J w : wfmat n J -> length w = length J ->
  mvR (gramR J) w = mvR J (vmR n w J).
Proof.
  intros H Hl. unfold gram, mv. rewrite map_map. apply map_ext. intros r.
  replace (map (fun s => dotR r s) J) with (mvR J r)
    by (unfold mv; apply map_ext; intros; apply dot_comm).
  rewrite (dot_comm r (vmR n w J)), dot_vm by assumption. apply dot_comm.
Qed.

Lemma dot_gram_row n J j w : wfmat n J -> length w = length J -> (j < length J)%nat ->
  dotR (nth j (gramR J) []) w = dotR (nth j J []) (vmR n w J).
Proof.
  intros HJ Hl Hj. rewrite <- !nth_mv by (rewrite ?length_gram; exact Hj).
  rewrite (mv_gram n) by assumption. reflexivity.
Qed.

Lemma bil_gram n J x y : wfmat n J -> length x = length J -> length y = length J ->
  dotR x (mvR (gramR J) y) = dotR (vmR n x J) (vmR n y J).
Proof.
  intros H Hx Hy. rewrite (mv_gram n) by assumption. rewrite <- (dot_vm n) by assumption.
  reflexivity.
Qed.

Lemma bil_gram_sym n J x y : wfmat n J -> length x = length J -> length y = length J ->
  dotR x (mvR (gramR J) y) = dotR y (mvR (gramR J) x).
Proof. intros. rewrite !(bil_gram n) by assumption. apply dot_comm. Qed.

Lemma quad_gram n J w : wfmat n J -> length w = length J ->
  dotR w (mvR (gramR J) w) = dotR (vmR n w J) (vmR n w J).
Proof. intros H Hl. apply bil_gram; assumption. Qed.

Lemma quad_gram_nonneg n J w : wfmat n J -> length w = length J ->
  0 <= dotR w (mvR (gramR J) w).
Proof. intros H Hl. rewrite (quad_gram n) by assumption. apply dot_self_nonneg. Qed.

End Gramian.

Section Mscale.

Lemma length_mscale t (J : list (list R)) : length (mscaleR t J) = length J.
Proof. apply map_length. Qed.

Lemma ncols_mscale t J : ncols (mscaleR t J) = ncols J.
Proof. destruct J; cbn; [reflexivity|apply length_vscale]. Qed.

Lemma nth_row_mscale k G j : nth_row (mscaleR k G) j = vscaleR k (nth_row G j).
Proof. unfold nth_row, mscale. apply (map_nth (vscaleR k) G []). Qed.

Lemma mget_mscale k G i j : mget RN (mscaleR k G) i j = k * mget RN G i j.
Proof.
  unfold mget, mscale. rewrite <- nth_vscale. f_equal. apply (map_nth (vscaleR k) G []).
Qed.

Lemma column_mscale t J j : column RN (mscaleR t J) j = vscaleR t (column RN J j).
Proof.
  induction J as [|r J IH]; [reflexivity|]. cbn [mscale map column]. fold (mscaleR t J).
  rewrite IH, nth_vscale. reflexivity.
Qed.

Lemma mscale_mscale a b G : mscaleR a (mscaleR b G) = mscaleR (a * b) G.
Proof. unfold mscale. rewrite map_map. apply map_ext. intros r. apply vscale_vscale. Qed.

Lemma mv_mscale c M x : mvR (mscaleR c M) x = vscaleR c (mvR M x).
Proof.
  unfold mscale, mv, vscale. rewrite !map_map. apply map_ext. intros r.
  apply dot_vscale_l.
Qed.

Lemma vm_mscale n t : forall w J, vmR n w (mscaleR t J) = vscaleR t (vmR n w J).
Proof.
  induction w as [|x w IH]; intros [|r J]; cbn [mscale map vm]; try (symmetry; apply vscale_vzero).
  fold (mscaleR t J). rewrite IH, vscale_vadd, !vscale_vscale, (Rmult_comm t x). reflexivity.
Qed.

Lemma gram_mscale t J : gramR (mscaleR t J) = mscaleR (t * t) (gramR J).
Proof.
  unfold gram, mscale. rewrite !map_map. apply map_ext. intros r. unfold vscale at 3.
  rewrite !map_map. apply map_ext. intros s. fold (vscaleR t r) (vscaleR t s).
  rewrite dot_vscale_l, dot_vscale_r. rn. lra.
Qed.

End Mscale.

Section VsumRows.

Lemma length_vsum_rows k W : wfmat k W -> length (vsum_rows RN k W) = k.
Proof.
  induction 1 as [|r W Hr HW IH]; cbn [vsum_rows]; [apply length_vzero|].
  rewrite length_vadd; congruence.
Qed.

Lemma vsum_rows_additive (f : list R -> list R) k k' W : f (vzeroR k) = vzeroR k' ->
  (forall a b, length a = k -> length b = k -> f (vaddR a b) = vaddR (f a) (f b)) ->
  wfmat k W -> f (vsum_rows RN k W) = vsum_rows RN k' (map f W).
Proof.
  intros H0 Hadd. induction 1 as [|r W Hr HW IH]; cbn [vsum_rows map]; [exact H0|].
  rewrite Hadd, IH by (try apply length_vsum_rows; assumption). reflexivity.
Qed.

Lemma mv_vsum_rows X k W : wfmat k W ->
  mvR X (vsum_rows RN k W) = vsum_rows RN (length X) (map (mvR X) W).
Proof.
  apply vsum_rows_additive; [apply mv_vzero|]. intros a b Ha Hb. apply mv_vadd. congruence.
Qed.

Lemma nth_vsum_rows_nonneg k W i : Forall (fun r => length r = k /\ 0 <= nth i r 0) W ->
  0 <= nth i (vsum_rows RN k W) 0.
Proof.
  induction 1 as [|r W [Hr Hp] HW IH]; cbn [vsum_rows].
  - rewrite nth_vzero. lra.
  - rewrite nth_vadd; [lra|].
    rewrite length_vsum_rows; [exact Hr|]. eapply Forall_impl; [|exact HW]. intros a [Ha _]; exact Ha.
Qed.

Lemma vsum_rows_cons0 k W : vsum_rows RN (S k) (map (cons 0) W) = 0 :: vsum_rows RN k W.
Proof.
  induction W as [|r W IH]; [reflexivity|]. cbn [map vsum_rows]. rewrite IH. cbn [vadd]. rn.
  f_equal. lra.
Qed.

Lemma sum_onehots (v : list R) :
  vsum_rows RN (length v) (map (fun i => onehotR (length v) i (nth i v 0)) (seq 0 (length v))) = v.
Proof.
  induction v as [|x v IH]; [reflexivity|].
  cbn [length seq map vsum_rows onehot nth]. rewrite <- seq_shift, map_map. cbn [onehot nth].
  rewrite <- (map_map (fun i => onehotR (length v) i (nth i v 0)) (cons 0)).
  rewrite vsum_rows_cons0, IH. cbn [vadd]. rewrite vadd_vzero_l by reflexivity. rn. f_equal. lra.
Qed.

Lemma vsum_rows_perm k L L' : Permutation L L' -> vsum_rows RN k L = vsum_rows RN k L'.
Proof.
  induction 1 as [|r l l' Hp IH|r s l|l l' l'' H1 IH1 H2 IH2]; cbn [vsum_rows].
  - reflexivity.
  - rewrite IH. reflexivity.
  - apply vadd_swap.
  - rewrite IH1. exact IH2.
Qed.

End VsumRows.
